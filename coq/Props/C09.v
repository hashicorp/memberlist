(* C09 — join and push/pull are mutual, all-or-nothing, vetoable; hearsay never kills.
   Models: Model/VerifyProto.v, Model/Stream.v (framing), Model/Core.v (merge of remote entries). *)
From VF Require Import Base Label Wire Stream Stream_proofs VerifyProto VerifyProto_proofs
                       Core Core_lemmas Core_inv Core_props.

(* verifyProtocol accepts a remote state list iff every speaker (each remote entry, its current
   versions read as 0 when the vector has fewer than 6 bytes; each local node) lies inside the
   protocol and delegate ranges advertised by every ALIVE node (remote ones with at least 5 version
   bytes, and local ones).  Closed statement over all byte-valued version vectors and list lengths. *)
Theorem C09_verify_spec : forall remote local,
  (forall s, In s (speakers remote local) -> byte_ok (fst s) /\ byte_ok (snd s)) ->
  (verify_protocol remote local = true <->
   forall s, In s (speakers remote local) -> forall r, In r (ranges remote local) -> in_range r (fst s) (snd s) = true).
Proof. exact verify_spec. Qed.
Print Assumptions C09_verify_spec.

(* an encrypted state exchange cut at ANY byte offset never yields a message: the reader runs out of
   bytes (an io error in the code), so nothing is merged (with C09_hearsay / Core: no merge, no change) *)
Theorem C09_cut_is_error : forall seal open comp decomp,
  (forall k n p ad, open k n (seal k n p ad) ad = Some p) ->
  (forall k k' n p ad, k <> k' -> open k' n (seal k n p ad) ad = None) ->
  (forall k n p ad, length (seal k n p ad) = (length p + 16)%nat) ->
  (forall m, exists body, comp m = t_compress :: body /\ decomp body = Some m) ->
  forall cs cr label payload nonce n,
  length nonce = 12%nat -> (encvsn cs = 0 \/ encvsn cs = 1)%N ->
  enc_on cs && verify_out cs = true -> enc_on cr = true ->
  (encrypted_length (encvsn cs) (blen (if compress_on cs then comp payload else payload)) <= max_push_state_bytes)%N ->
  (n < length (stream_frame seal comp cs label payload nonce))%nat ->
  read_stream open decomp cr label (firstn n (stream_frame seal comp cs label payload nonce)) = SNeedMore.
Proof. intros seal open comp decomp _ _ Hlen _. exact (cut_encrypted_is_error seal open comp decomp Hlen). Qed.
Print Assumptions C09_cut_is_error.

(* the size cap on an encrypted exchange is checked on the 5 header bytes, before anything is read *)
Theorem C09_caps_before_buffer : forall open decomp c label l1 l2 l3 l4 rest,
  enc_on c = true -> (max_push_state_bytes < rd32 l1 l2 l3 l4)%N ->
  read_stream open decomp c label (t_encrypt :: l1 :: l2 :: l3 :: l4 :: rest) = SErr 31.
Proof. exact stream_cap_before_read. Qed.
Print Assumptions C09_caps_before_buffer.

(* hearsay: a remote Dead / Suspect entry about a member the node holds alive only starts local
   suspicion -- the member stays in Members() and no event fires *)
Theorem C09_hearsay : forall c s rs inc n addr meta vsn r,
  Inv c s -> lk s n = Some r -> rst r = Alive -> n <> self c -> (rs = Dead \/ rs = Suspect) ->
  let '(s', evs) := do_merge c s rs inc n addr meta vsn in
  evs = [] /\ view s' n = view s n.
Proof. exact hearsay_keeps_member. Qed.
Print Assumptions C09_hearsay.

(* a remote Left entry is the member's own departure (C08_peer_records_left); a remote Alive entry is
   an ordinary alive claim (C01 / C08): merging a list is the fold of its entries through [step] *)
Theorem C09_merge_is_fold : forall c s rs inc n addr meta vsn,
  step c s (OMerge rs inc n addr meta vsn) = do_merge c s rs inc n addr meta vsn.
Proof. reflexivity. Qed.
Print Assumptions C09_merge_is_fold.

(* mutuality fails when the HOST vetoes or is incompatible: its handler replies before it verifies
   and merges (known finding D-C09, reproduced on every run by the join scenarios of the stream
   harness); the model-level reason: the reply is produced independently of the merge result *)
Example C09_verify_rejects_example :
  verify_protocol [mkRN true [1;5;2;0;0;0]%N] [mkLN true 1 5 2 2 3 2] = false.
Proof. vm_compute. reflexivity. Qed.
