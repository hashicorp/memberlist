(* C06 — suspicion timeout respects the Lifeguard bounds and confirmation rules.
   Model: Model/Susp.v (the timer) and Model/Core.v (its use by the node).  [T n] is the float64
   schedule remainingSuspicionTime(n,k,0,min,max); the theorems hold for every T with [T_ok]
   (within [min,max], non-increasing in n), which is evaluated on the code's own table on every run. *)
From VF Require Import Base Susp Susp_proofs Core Core_lemmas Core_inv.
Local Open Scope Z_scope.

(* every timed sequence of confirmations (any senders, duplicates, the accuser, any non-decreasing
   times, also after the deadline): the firing instant stays within [start+min, start+max] and the
   deadline only ever moves earlier *)
Theorem C06_bounds : forall T k mn mx, T_ok T k mn mx ->
  forall cs st s t0, SInv T k mn mx st s -> st <= t0 -> times_ok t0 cs ->
  let s' := fst (srun T s cs) in
  SInv T k mn mx st s' /\ st + mn <= sdeadline s' <= st + mx /\ sdeadline s' <= sdeadline s.
Proof. intros T k mn mx HT cs st s t0 H _ _. exact (srun_bounds T k mn mx HT cs st s H). Qed.
Print Assumptions C06_bounds.

Theorem C06_new_inv : forall T k mn mx, T_ok T k mn mx -> forall from st, SInv T k mn mx st (snew from k mn mx st).
Proof. exact snew_inv. Qed.
Print Assumptions C06_new_inv.

(* one confirmation, exactly: accepted iff fewer than k so far and the sender is new (the accuser is
   in the set from the start); the new deadline is max(now, start + T(n+1)) -- never later than before,
   and nothing moves once the timer has fired *)
Theorem C06_confirm : forall T k mn mx, T_ok T k mn mx -> forall st s from now,
  SInv T k mn mx st s -> st <= now ->
  let '(s', b) := sconfirm T s from now in
  SInv T k mn mx st s'
  /\ sdeadline s' <= sdeadline s
  /\ (sfired (stick s now) = true -> sdeadline s' = sdeadline s)
  /\ (b = true -> Nmem from (sconfs s) = false /\ sn s < k /\ sn s' = sn s + 1 /\ sconfs s' = from :: sconfs s)
  /\ (b = false -> sn s' = sn s /\ sconfs s' = sconfs s /\ sdeadline s' = sdeadline s)
  /\ (b = true -> sfired (stick s now) = false ->
        sdeadline s' = Z.max now (st + T (sn s + 1)) /\ sfired s' = (st + T (sn s + 1) <=? now)).
Proof. intros T k mn mx HT st s from now H _. exact (sconfirm_spec T k mn mx HT st s from now H). Qed.
Print Assumptions C06_confirm.

(* over a whole schedule: accepted confirmations = growth of n; every accepted sender is recorded
   (so it cannot count twice); at most k are accepted; with k < 1 none is *)
Theorem C06_confirmers : forall T k mn mx, T_ok T k mn mx ->
  forall cs st s t0, SInv T k mn mx st s -> st <= t0 -> times_ok t0 cs ->
  let '(s', bs) := srun T s cs in
  sn s' - sn s = Z.of_nat (length (filter (fun b => b) bs))
  /\ (forall x, Nmem x (sconfs s) = true -> Nmem x (sconfs s') = true)
  /\ Forall2 (fun c b => b = true -> Nmem (fst c) (sconfs s') = true) cs bs
  /\ (1 <= k -> sn s' <= k) /\ (k < 1 -> Forall (fun b => b = false) bs).
Proof. intros T k mn mx HT cs st s t0 H _ _. exact (srun_confirmers T k mn mx HT cs st s H). Qed.
Print Assumptions C06_confirmers.

Theorem C06_k0_min : forall k mn mx from st, k < 1 -> sdeadline (snew from k mn mx st) = st + mn.
Proof. exact k0_min. Qed.
Print Assumptions C06_k0_min.

(* on the node: a fired timer kills only the suspicion it was created for -- a timer whose creation
   time differs from the record's state-change time, or whose member is no longer suspect
   (refuted, re-suspected later, dead), does nothing *)
Theorem C06_stale_timer_harmless : forall c s t,
  (forall r, alookup (tname t) (recs s) = Some r -> rst r <> Suspect \/ rsince r <> tct t) ->
  timer_fire c s t = (s, []).
Proof.
  intros c s t H. unfold timer_fire. destruct (alookup (tname t) (recs s)) as [r|]; [|reflexivity].
  destruct (H r eq_refl) as [E|E].
  - destruct (rst r); try reflexivity. contradiction.
  - destruct (Z.eqb_spec (rsince r) (tct t)); [contradiction|]. rewrite andb_false_r. reflexivity.
Qed.
Print Assumptions C06_stale_timer_harmless.

(* ... and in every reachable node state a registered (live) timer belongs to a suspected member *)
Theorem C06_timer_only_for_suspects : forall c, fixed c = true -> forall ops s,
  FInv c s -> run_ok c s ops ->
  forall t, In t (timers (fst (run c s ops))) -> tlive t = true ->
  exists r, lk (fst (run c s ops)) (tname t) = Some r /\ rst r = Suspect.
Proof. intros c _ ops s [HI _] _. exact (run_TInv c ops s (inv_t _ _ HI)). Qed.
Print Assumptions C06_timer_only_for_suspects.

(* "... unless it first accepts a refutation (the peer stays)": the timeout callback checks under the lock, releases
   it, and applies its death claim at the incarnation it checked.  If the member's alive message at a higher
   incarnation is processed in between, the death claim is stale: nothing changes and the member is listed alive
   (the harness drives exactly this interleaving on the implementation, CoreCheck.check_split) *)
Theorem C06_refutation_before_death_claim : forall c s inc name addr meta vsn r from,
  lk s name = Some r -> name <> self c -> raddr r = addr -> (rinc r < inc)%N -> vsn_bad vsn = false ->
  let s' := fst (do_alive c s inc name addr meta vsn false) in
  do_dead c s' (rinc r) name from = (s', []) /\
  exists r', lk s' name = Some r' /\ rst r' = Alive /\ rinc r' = inc.
Proof. exact refutation_before_death_claim. Qed.
Print Assumptions C06_refutation_before_death_claim.

(* non-vacuity: the schedule table of SuspicionMult = 4, 1 s interval (k = 2, min 4 s, max 24 s) *)
Example C06_table_ok : T_ok (T_of [0; 11381000000; 4000000000] 4000000000) 2 4000000000 24000000000.
Proof.
  unfold T_ok, T_of. repeat split; try lia.
  - assert (n = 1 \/ n = 2) as [->| ->] by lia; vm_compute; discriminate.
  - assert (n = 1 \/ n = 2) as [->| ->] by lia; vm_compute; discriminate.
  - intros n m H1 H2. assert ((n = 1 /\ m = 1) \/ (n = 1 /\ m = 2) \/ (n = 2 /\ m = 2)) as [[-> ->]|[[-> ->]|[-> ->]]] by lia;
      vm_compute; discriminate.
Qed.

Example C06_run :
  let T := T_of [0; 11381000000; 4000000000] 4000000000 in
  let '(s, bs) := srun T (snew 0 2 4000000000 24000000000 0) [(1%N, 1000000000); (0%N, 2000000000); (1%N, 3000000000); (2%N, 5000000000); (3%N, 6000000000)] in
  bs = [true; false; false; true; false] /\ sdeadline s = 5000000000 /\ sfired s = true.
Proof. vm_compute. repeat split. Qed.
