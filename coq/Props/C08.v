(* C08 — graceful leave is final; a member's name and address cannot be hijacked. *)
From VF Require Import Base Core Core_lemmas Core_inv Core_props Exchange Leave_proofs.

(* --- peers: a departure (dead message signed by the node itself) is recorded as Left --- *)
Theorem C08_peer_records_left : forall c s inc name r,
  name <> self c -> lk s name = Some r -> dead_or_left (rst r) = false -> (rinc r <= inc)%N ->
  let '(s', evs) := do_dead c s inc name name in
  lk s' name = Some (mkRec inc Left (raddr r) (rmeta r) (rvsn r) (now s))
  /\ evs = [EvLeave name (raddr r) (rmeta r)].
Proof. exact peer_records_left. Qed.
Print Assumptions C08_peer_records_left.

(* ... unless the peer remembers a newer incarnation (the exception in the property): C01_stale_dead *)

(* --- no resurrection: Left absorbs alive <= departure (same address), every suspect, every dead --- *)
Theorem C08_no_resurrection_alive : forall c s inc name meta vsn b r,
  lk s name = Some r -> rst r = Left -> (inc <= rinc r)%N -> name <> self c ->
  do_alive c s inc name (raddr r) meta vsn b = (s, []).
Proof. intros c s inc name meta vsn b r L _ Hi Hn. exact (alive_stale_other c s inc name (raddr r) meta vsn b r L eq_refl Hn Hi). Qed.
Print Assumptions C08_no_resurrection_alive.

Theorem C08_no_resurrection_suspect : forall c s inc name from r,
  Inv c s -> lk s name = Some r -> rst r = Left -> do_suspect c s inc name from = (s, []).
Proof. exact left_absorbing_suspect. Qed.
Print Assumptions C08_no_resurrection_suspect.

Theorem C08_no_resurrection_dead : forall c s inc name from r,
  Inv c s -> lk s name = Some r -> rst r = Left -> do_dead c s inc name from = (s, []).
Proof. exact left_absorbing_dead. Qed.
Print Assumptions C08_no_resurrection_dead.

(* --- the leaver: after Leave has started, alive and suspect claims about itself are dropped
       (so its incarnation can no longer move and the departure cannot go stale: D-C08), and any
       dead claim it accepts about itself is recorded and announced as its own departure (D-C08b) --- *)
Theorem C08_leaving_alive_dropped : forall c s inc addr meta vsn b,
  leaving s = true -> do_alive c s inc (self c) addr meta vsn b = (s, []).
Proof. exact leaving_alive_dropped. Qed.
Print Assumptions C08_leaving_alive_dropped.

Theorem C08_leave_atomic : forall c, fixed c = true -> forall s inc from r,
  Inv c s -> leaving s = true -> lk s (self c) = Some r -> rst r <> Suspect ->
  do_suspect c s inc (self c) from = (s, []).
Proof. exact leaving_suspect_dropped. Qed.
Print Assumptions C08_leave_atomic.

Theorem C08_leave_commit_left : forall c, fixed c = true -> forall s inc from r,
  Inv c s -> leaving s = true -> lk s (self c) = Some r -> dead_or_left (rst r) = false -> (rinc r <= inc)%N ->
  let '(s', evs) := do_dead c s inc (self c) from in
  lk s' (self c) = Some (mkRec inc Left (raddr r) (rmeta r) (rvsn r) (now s))
  /\ alookup (kname (self c)) (bq s') = Some (BDead inc (self c) (self c))
  /\ evs = [EvLeave (self c) (raddr r) (rmeta r)].
Proof. intros c Hf s inc from r _. exact (leaving_dead_is_departure c Hf s inc from r). Qed.
Print Assumptions C08_leave_commit_left.

(* --- address conflicts: a different address for an alive, suspect or not-yet-reclaimable dead
       member changes nothing; only the conflict delegate (if any) is told --- *)
Theorem C08_conflict : forall c s inc name addr meta vsn b r,
  negb (leaving s && N.eqb name (self c)) = true -> vsn_bad vsn = false ->
  alookup name (recs s) = Some r -> raddr r <> addr -> is_allowed c addr = true ->
  can_replace c s r = false ->
  do_alive c s inc name addr meta vsn b =
  (s, if has_conflict c then [EvConflict name (raddr r) addr] else []).
Proof. exact alive_conflict. Qed.
Print Assumptions C08_conflict.

(* [can_replace] is exactly: Left, or Dead with a positive reclaim time that has elapsed *)
Theorem C08_can_replace_spec : forall c s r,
  can_replace c s r = true <->
  (rst r = Left \/ (rst r = Dead /\ (0 < reclaim c)%Z /\ (reclaim c < now s - rsince r)%Z)).
Proof.
  intros c s r. unfold can_replace. destruct (rst r); cbn; split; intro H;
    try discriminate; try (destruct H as [H|[H _]]; discriminate); auto.
  - right. apply andb_true_iff in H. destruct H as [H1 H2]. apply Z.ltb_lt in H1. apply Z.ltb_lt in H2. auto.
  - destruct H as [H|[_ [H1 H2]]]; [discriminate|]. apply andb_true_iff. split; apply Z.ltb_lt; assumption.
Qed.
Print Assumptions C08_can_replace_spec.

(* --- name reuse from a new allowed address: accepted at any incarnation, at once for Left,
       for Dead only after the reclaim time --- *)
Theorem C08_reclaim : forall c s inc name addr meta vsn r,
  name <> self c -> vsn_bad vsn = false -> lk s name = Some r -> raddr r <> addr -> is_allowed c addr = true ->
  can_replace c s r = true ->
  let '(s', evs) := do_alive c s inc name addr meta vsn false in
  lk s' name = Some (mkRec inc Alive addr meta (if (6 <=? length vsn)%nat then firstn 6 vsn else rvsn r) (now s))
  /\ evs = [EvJoin name addr meta].
Proof. exact reclaim_accepted. Qed.
Print Assumptions C08_reclaim.

(* the defect of the pinned tree (D-C08), as a witness on the unrepaired model: Leave's flag,
   then a suspicion about ourselves, then Leave's own dead message: the node stays alive *)
Example C08_leave_race_refuted :
  let c := mkCfg 0 0 [1;5;2;0;0;0]%N 0 30000000000 2 4000000000 6 [] 8 true false [] false in
  let s := fst (run c (boot c 1) [OLeaveBegin; OSuspect 1 0 1; OLeaveCommit 1]) in
  leaving s = true /\ exists r, lk s 0 = Some r /\ rst r = Alive /\ rinc r = 2%N /\ alookup (kname 0) (bq s) = Some (BAlive 1 0 0 1 [1;5;2;0;0;0]%N).
Proof. vm_compute. split; [reflexivity|]. eexists. repeat split. Qed.

(* the same history on the repaired model: the node has left *)
Example C08_leave_race_fixed :
  let c := cfg_ex in
  let s := fst (run c (boot c 1) [OLeaveBegin; OSuspect 1 0 1; OLeaveCommit 1]) in
  exists r, lk s 0 = Some r /\ rst r = Left /\ alookup (kname 0) (bq s) = Some (BDead 1 0 0).
Proof. vm_compute. eexists. repeat split. Qed.

(* ---------- whole histories ---------- *)
(* Leave on a running node that lists itself: flag set, own record Left at the incarnation it had, no
   suspicion timer about itself *)
Theorem C08_leave_reaches_left : forall c, fixed c = true -> forall s r w,
  Inv c s -> leaving s = false -> lk s (self c) = Some r -> rst r = Alive ->
  exists r', Gone c (fst (step c s (OLeave w))) r' /\ rinc r' = rinc r.
Proof. intros c Hf s r w _. exact (leave_is_gone c Hf s r w). Qed.
Print Assumptions C08_leave_reaches_left.

(* ... and from then on NO operation and no sequence of operations — alive, suspect or dead claims about
   itself or anybody else by gossip or push/pull, at any incarnation, from any address; timers; reaping
   (the own record is kept); UpdateNode, a second Leave — changes its own record or clears the flag: the
   node never lists itself again, whatever arrives and in whatever order *)
Theorem C08_left_is_final : forall c, fixed c = true -> forall ops s r,
  Gone c s r -> Gone c (fst (run c s ops)) r /\ listed (fst (run c s ops)) (self c) = None.
Proof. exact gone_run. Qed.
Print Assumptions C08_left_is_final.

Theorem C08_left_is_final_step : forall c, fixed c = true -> forall s r o, Gone c s r -> Gone c (fst (step c s o)) r.
Proof. exact gone_step. Qed.
Print Assumptions C08_left_is_final_step.

(* the leaver's own queued messages: in every state of every history from boot, every alive message about
   the node itself that sits in its broadcast queue carries at most the incarnation of its own record.
   Once that record is the departure (Left at i) every such message is therefore no newer than the
   departure, and by C08_no_resurrection_alive a peer that recorded the departure ignores it — in whatever
   order the refutation's alive message (queued under the address key, which the departure does not
   supersede) and the departure are transmitted *)
Theorem C08_own_alive_not_newer : forall c, fixed c = true -> forall meta ops,
  is_allowed c (self_addr c) = true -> vsn_bad (self_vsn c) = false -> run_ok c (boot c meta) ops ->
  forall k i a m v, In (k, BAlive i (self c) a m v) (bq (fst (run c (boot c meta) ops))) ->
  exists r, lk (fst (run c (boot c meta) ops)) (self c) = Some r /\ (i <= rinc r)%N.
Proof.
  intros c Hf meta ops Al Vb HR. apply (Q_run c Hf ops (boot c meta)); [apply boot_FInv; assumption | exact HR | apply Q_boot; assumption].
Qed.
Print Assumptions C08_own_alive_not_newer.

Theorem C08_own_alive_step : forall c, fixed c = true -> forall s o, FInv c s -> op_ok c s o -> QInv c s -> QInv c (fst (step c s o)).
Proof. exact Q_step. Qed.
Print Assumptions C08_own_alive_step.

(* non-vacuity: the node is accused (refutes: incarnation 2, alive message queued under its address key),
   updates its metadata (incarnation 3), leaves (Left at 3, departure queued under its name), and is then
   hit by its own old alive message, an accusation, a death claim, a newer alive about itself from another
   address, a reap after a long time and a second Leave: nothing changes; both queued alive messages are
   below the departure *)
Example C08_history_nonvacuous :
  let c := cfg_ex in
  let ops1 := [OSuspect 1 0 7; OUpdate 5 0; OLeave 0] in
  let ops2 := [OAlive 3 0 0 5 [1;5;2;0;0;0]%N false; OSuspect 9 0 7; ODead 9 0 7; OAlive 9 0 4 6 [1;5;2;0;0;0]%N false;
               OAdvance 100000000000; OReap; OLeave 0; OUpdate 8 0] in
  run_ok c (boot c 1) (ops1 ++ ops2) /\
  (exists r, Gone c (fst (run c (boot c 1) ops1)) r /\ rinc r = 3%N) /\
  (let s := fst (run c (boot c 1) (ops1 ++ ops2)) in
   listed s 0 = None /\
   map (fun e => match snd e with BAlive i n _ _ _ => (1%N, i, n) | BSuspect i n _ => (2%N, i, n) | BDead i n _ => (3%N, i, n) end) (bq s)
     = [(3, 3, 0); (1, 2, 0)]%N).
Proof.
  cbv zeta. split; [|split].
  - apply run_okb_ok. vm_compute. reflexivity.
  - eexists. unfold Gone, no_live. vm_compute. repeat split; reflexivity.
  - vm_compute. split; reflexivity.
Qed.
