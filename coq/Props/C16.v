(* C16 — labels isolate logical clusters.  Models: Model/Label.v, Model/Wire.v. *)
From VF Require Import Base Label Label_proofs Wire Wire_proofs.

(* packets: add then remove returns payload and label, for every label of 1..255 bytes and every payload *)
Theorem C16_packet_roundtrip : forall label buf, label <> [] -> (length label <= 255)%nat ->
  match add_label buf label with Ok p => remove_label p = Ok (buf, label) | _ => False end.
Proof. exact label_packet_roundtrip. Qed.
Print Assumptions C16_packet_roundtrip.

Theorem C16_no_header_passthrough : forall buf,
  (forall b r, buf = b :: r -> b <> has_label_msg) -> remove_label buf = Ok (buf, []).
Proof. exact no_header_passthrough. Qed.
Print Assumptions C16_no_header_passthrough.

Theorem C16_overlong_label_err : forall label buf, (255 < length label)%nat -> add_label buf label = Err 1.
Proof. exact overlong_label_err. Qed.
Print Assumptions C16_overlong_label_err.

Theorem C16_truncated_header_err :
  remove_label [has_label_msg] = Err 2 /\
  forall sz rest, (1 <= sz)%N -> (length rest < N.to_nat sz)%nat -> remove_label (has_label_msg :: sz :: rest) = Err 2.
Proof. exact truncated_header_err. Qed.
Print Assumptions C16_truncated_header_err.

(* streams: header + payload delivered in ANY fragmentation (each Read returns any non-empty piece,
   also pieces that end inside the header): the label comes back and what the continuation
   (peeked bytes, then the connection) yields is exactly the payload *)
Theorem C16_stream_roundtrip : forall label payload frags,
  label <> [] -> (length label <= 255)%nat ->
  concat frags = label_header label ++ payload ->
  exists pc, remove_label_stream frags = Ok (label, pc) /\ drain pc = payload.
Proof. exact label_stream_roundtrip. Qed.
Print Assumptions C16_stream_roundtrip.

Theorem C16_stream_no_header_passthrough : forall frags b rest,
  concat frags = b :: rest -> b <> has_label_msg ->
  exists pc, remove_label_stream frags = Ok ([], pc) /\ drain pc = b :: rest.
Proof. exact stream_no_header_passthrough. Qed.
Print Assumptions C16_stream_no_header_passthrough.

(* isolation: a packet reaches a handler only if it carried exactly the node's label, or, when the
   inbound check is delegated to an outer layer, no label header at all *)
Theorem C16_isolation : forall open decomp fuel c pkt ds,
  ingest open decomp fuel c pkt = Ok ds -> ds <> [] ->
  exists buf lab, remove_label pkt = Ok (buf, lab) /\
    ((skip_label c = false /\ lab = plabel c) \/ (skip_label c = true /\ lab = [])).
Proof. exact ingest_label_isolation. Qed.
Print Assumptions C16_isolation.

Example C16_nonvacuous :
  remove_label_stream [[244]; [3; 97]; [98; 99; 7]; [8; 9]]%N = Ok ([97; 98; 99]%N, mkPC [7]%N [[8; 9]%N]).
Proof. vm_compute. reflexivity. Qed.
