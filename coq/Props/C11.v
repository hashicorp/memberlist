(* C11 — piggyback packing is lossless and stays within the packet budget.  Model: Model/Wire.v. *)
From VF Require Import Base Label Wire Wire_proofs.
Local Open Scope N_scope.

(* one compound: at most 255 parts, each below 64 KiB, decode to exactly those parts *)
Theorem C11_compound_roundtrip : forall msgs, (length msgs <= 255)%nat -> small_parts msgs ->
  match make_compound msgs with
  | t :: body => t = t_compound /\ decode_compound body = Ok (O, msgs)
  | [] => False
  end.
Proof. exact compound_roundtrip. Qed.
Print Assumptions C11_compound_roundtrip.

(* any number of parts: the receiver unpacks exactly the packed messages, in full and in order *)
Theorem C11_compounds_roundtrip : forall msgs, small_parts msgs -> decode_all (make_compounds msgs) = msgs.
Proof. exact compounds_roundtrip. Qed.
Print Assumptions C11_compounds_roundtrip.

(* why a single compound is not enough (what the pinned sendMsg did): the count byte wraps *)
Theorem C11_single_compound_refuted : nth 1 (make_compound (repeat [1] 300)) 0 = 44.
Proof. exact single_compound_wraps. Qed.
Print Assumptions C11_single_compound_refuted.

(* on-wire length = label header + encryption framing (version, nonce, padding, tag) around the
   CRC header and the compound; with the repaired budgets it never exceeds the configured size,
   for every label length, encryption version, verify-outgoing setting and selection that fits *)
Theorem C11_sendmsg_budget : forall c udp msg extra,
  (encvsn c = 0 \/ encvsn c = 1) ->
  let avail := udp - blen msg - 2 - 2 - 5 - label_overhead (plabel c)
               - (if enc_on c && verify_out c then enc_overhead (encvsn c) else 0) in
  blen msg + 2 + 2 + 5 + label_overhead (plabel c) + (if enc_on c && verify_out c then enc_overhead (encvsn c) else 0) <= udp ->
  parts_size extra <= avail -> (length (msg :: extra) <= 255)%nat ->
  wire_len c (5 + blen (make_compound (msg :: extra))) <= udp.
Proof. exact sendmsg_budget. Qed.
Print Assumptions C11_sendmsg_budget.

Theorem C11_gossip_budget : forall c udp msgs,
  (encvsn c = 0 \/ encvsn c = 1) ->
  let avail := udp - 2 - 5 - label_overhead (plabel c) - (if enc_on c then enc_overhead (encvsn c) else 0) in
  2 + 5 + label_overhead (plabel c) + (if enc_on c then enc_overhead (encvsn c) else 0) <= udp ->
  parts_size msgs <= avail -> (length msgs <= 255)%nat ->
  wire_len c (5 + blen (make_compound msgs)) <= udp.
Proof. exact gossip_budget. Qed.
Print Assumptions C11_gossip_budget.

Theorem C11_encrypted_length_bound : forall vsn n, (vsn = 0 \/ vsn = 1) -> encrypted_length vsn n <= n + enc_overhead vsn.
Proof. exact encrypted_length_bound. Qed.
Print Assumptions C11_encrypted_length_bound.

(* the pinned budget forgot the first part's length slot and the CRC header: 1407 bytes for a 1400 limit *)
Theorem C11_budget_refuted :
  let c := mkP [97;98;99] false [1] true true 1 false false in
  let udp := 1400 in let msg := repeat 0 20 in
  let avail_pinned := udp - blen msg - 2 - label_overhead (plabel c) - enc_overhead 1 in
  let extra := [repeat 0 (N.to_nat (avail_pinned - 2))] in
  parts_size extra <= avail_pinned /\ wire_len c (5 + blen (make_compound (msg :: extra))) = 1407.
Proof. exact sendmsg_budget_pinned_refuted. Qed.
Print Assumptions C11_budget_refuted.
