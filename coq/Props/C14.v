(* C14 — inbound authentication (packet path here; stream path in the second half).
   Ideal AEAD assumption: [open] succeeds only on genuine sealings ([genuine], a parameter). *)
From VF Require Import Base Label Wire Wire_proofs Stream Stream_proofs.

(* whatever decryptPayload accepts is a genuine sealing under an INSTALLED key, with the given
   associated data, of exactly the received nonce and ciphertext -- and the plaintext handed on is
   that sealing's plaintext, EXCEPT that the unauthenticated version byte decides whether PKCS7
   padding is stripped from it (known finding D-C14; hence "_partial") *)
Theorem C14_accept_implies_genuine_partial : forall open (genuine : N -> bytes -> bytes -> bytes -> bytes -> Prop),
  (forall k n ct ad p, open k n ct ad = Some p -> genuine k n p ad ct) ->
  forall c msg aad p, decrypt_payload open c msg aad = Ok p ->
  exists vsn k p0, hd_error msg = Some vsn /\ (vsn = 0 \/ vsn = 1)%N /\ In k (keys c)
    /\ genuine k (firstn 12 (skipn 1 msg)) p0 aad (skipn 13 msg)
    /\ ((vsn = 1%N /\ p = p0) \/ (vsn = 0%N /\ pkcs7_unpad_raw p0 = Ok p /\ (fixed c = true -> pkcs7_valid p0 = true))).
Proof. exact decrypt_accepts_only_genuine. Qed.
Print Assumptions C14_accept_implies_genuine_partial.

(* with a keyring and incoming verification on, a packet has an effect only after such a decryption,
   with the node's own label as the associated data *)
Theorem C14_effect_requires_decryption : forall open decomp fuel c pkt ds,
  enc_on c = true -> verify_in c = true -> ingest open decomp fuel c pkt = Ok ds -> ds <> [] ->
  exists buf lab p, remove_label pkt = Ok (buf, lab) /\
    decrypt_payload open c buf (if skip_label c then plabel c else lab) = Ok p /\
    list_eqb N.eqb (plabel c) (if skip_label c then plabel c else lab) = true.
Proof. exact ingest_authenticated. Qed.
Print Assumptions C14_effect_requires_decryption.

(* streams: with a keyring and incoming verification on, a message is read only through a successful
   authenticated decryption whose associated data is  encryptMsg || length || the node's label *)
Theorem C14_stream_authenticated : forall open decomp c label b t body,
  enc_on c = true -> verify_in c = true -> read_stream open decomp c label b = SOk t body ->
  exists l1 l2 l3 l4 rest plain, b = t_encrypt :: l1 :: l2 :: l3 :: l4 :: rest /\
    decrypt_payload open c (firstn (N.to_nat (rd32 l1 l2 l3 l4)) rest) (t_encrypt :: l1 :: l2 :: l3 :: l4 :: label) = Ok plain.
Proof. exact stream_authenticated. Qed.
Print Assumptions C14_stream_authenticated.

(* the unconditional statement ("exactly the original plaintext") is false: flipping the version byte
   of a genuine version-1 sealing whose plaintext happens to end in valid padding drops bytes *)
Example C14_full_refuted :
  let p0 := [48;49;50;51;52;53;54;55;56;57;97;98;99;100;101;1]%N in
  let open := fun (k : N) (_ _ _ : bytes) => if N.eqb k 1 then Some p0 else None in
  decrypt_payload open (mkP [] false [1%N] true true 1 false true) (1%N :: repeat 0%N 60) [] = Ok p0 /\
  decrypt_payload open (mkP [] false [1%N] true true 1 false true) (0%N :: repeat 0%N 60) [] = Ok (firstn 15 p0).
Proof. vm_compute. split; reflexivity. Qed.
