(* C02 — a running node always defends itself: refutation outranks every accusation. *)
From VF Require Import Base Core Core_lemmas Core_inv Core_props.

(* over every history (no Leave, incarnations below the largest representable value) the node
   lists itself as a live member and its record is Alive -- never suspect, dead or left *)
Theorem C02_self_listed : forall c, fixed c = true -> forall ops s,
  FInv c s -> run_ok c s ops ->
  let s' := fst (run c s ops) in
  leaving s' = false ->
  exists r, lk s' (self c) = Some r /\ rst r = Alive /\ In (self c, (raddr r, rmeta r)) (members s').
Proof. exact self_listed. Qed.
Print Assumptions C02_self_listed.

(* what a refutation does: the new incarnation is strictly above the claim and above the old one,
   the own record carries it, an alive message with it is queued, the health score rises by one (clamped) *)
Theorem C02_refute_outranks : forall c s r accused,
  below_max accused -> below_max (linc s) -> refutation_of c s (refute c s r accused) r accused.
Proof. exact refute_effect. Qed.
Print Assumptions C02_refute_outranks.

(* every accusation at an incarnation >= the own one is answered by exactly that refutation:
   suspect (gossip, piggyback, push/pull hearsay) *)
Theorem C02_suspect_refuted : forall c s inc from r,
  Inv c s -> leaving s = false -> lk s (self c) = Some r -> rst r = Alive -> (rinc r <= inc)%N ->
  do_suspect c s inc (self c) from = (refute c s r inc, []).
Proof. exact suspect_self_refuted. Qed.
Print Assumptions C02_suspect_refuted.

(* dead, whoever signed it *)
Theorem C02_dead_refuted : forall c s inc from r,
  Inv c s -> leaving s = false -> lk s (self c) = Some r -> rst r = Alive -> (rinc r <= inc)%N ->
  do_dead c s inc (self c) from = (refute c s r inc, []).
Proof. exact dead_self_refuted. Qed.
Print Assumptions C02_dead_refuted.

(* an alive claim about itself that is newer, or equal in incarnation but different in metadata/versions *)
Theorem C02_alive_refuted : forall c s inc meta vsn r,
  Inv c s -> leaving s = false -> lk s (self c) = Some r -> rst r = Alive -> vsn_bad vsn = false ->
  ((rinc r < inc)%N \/ (inc = rinc r /\ (N.eqb meta (rmeta r) && Nlist_eqb vsn (rvsn r)) = false)) ->
  do_alive c s inc (self c) (raddr r) meta vsn false = (refute c s r inc, []).
Proof. exact alive_self_refuted. Qed.
Print Assumptions C02_alive_refuted.

(* the bound in the property text is necessary: at the largest incarnation the counter wraps *)
Example C02_wrap_refuted :
  refute_inc (mkS [] 0 [] 4294967295 false 0 [] 0) 4294967295 = 0%N.
Proof. vm_compute. reflexivity. Qed.

(* non-vacuity *)
Example C02_hypotheses_satisfiable :
  let c := cfg_ex in let s := boot c 1 in
  exists r, lk s (self c) = Some r /\ rst r = Alive /\ leaving s = false
            /\ fst (do_suspect c s 7 0 3) = refute c s r 7 /\ linc (refute c s r 7) = 8%N.
Proof. vm_compute. eexists. repeat split. Qed.
