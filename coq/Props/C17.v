(* C17 — keyring integrity and zero-downtime key rotation.
   Model: Model/Keyring.v (backing arrays explicit, so that Go slice aliasing is expressible). *)
From VF Require Import Base Keyring Keyring_proofs.

(* every sequence of AddKey/UseKey/RemoveKey/GetKeys/GetPrimaryKey with any keys keeps the ring
   duplicate-free, made of valid-length keys only, with the primary (head) installed *)
Theorem C17_inv_all_histories : forall valid fixed ops s,
  RingInv valid s -> RingInv valid (fst (krun valid fixed s ops)).
Proof. exact krun_inv. Qed.
Print Assumptions C17_inv_all_histories.

Theorem C17_step_inv : forall valid fixed s o, RingInv valid s -> RingInv valid (fst (kstep valid fixed s o)).
Proof. exact kstep_inv. Qed.
Print Assumptions C17_step_inv.

(* no call panics (repaired code) *)
Theorem C17_no_panic : forall valid ops s, Forall (fun x => kres x <> 2%N) (snd (krun valid true s ops)).
Proof. exact krun_no_panic. Qed.
Print Assumptions C17_no_panic.

(* a key list handed out by GetKeys is never altered by later calls (repaired code):
   every backing array that exists keeps its content over every history *)
Theorem C17_returned_lists_immutable : forall valid ops s h, h < length (arrs s) ->
  nth h (arrs (fst (krun valid true s ops))) [] = nth h (arrs s) [].
Proof. exact krun_arrays_frozen. Qed.
Print Assumptions C17_returned_lists_immutable.

(* exact error conditions and effects (by computation on the model's definition) *)
Theorem C17_remove_primary_refused : forall valid fixed s p r, ring s = p :: r ->
  kstep valid fixed s (KRemove p) = (s, mkKO 1 [] None).
Proof. intros valid fixed s p r E. cbn [kstep]. rewrite E, N.eqb_refl. reflexivity. Qed.
Print Assumptions C17_remove_primary_refused.

Theorem C17_use_requires_installed : forall valid fixed s k, Nmem k (ring s) = false ->
  kstep valid fixed s (KUse k) = (s, mkKO 1 [] None).
Proof. intros valid fixed s k E. cbn [kstep]. rewrite E. reflexivity. Qed.
Print Assumptions C17_use_requires_installed.

Theorem C17_invalid_key_refused : forall valid fixed s k, valid k = false ->
  kstep valid fixed s (KAdd k) = (s, mkKO 1 [] None).
Proof. intros valid fixed s k E. cbn [kstep]. rewrite E. reflexivity. Qed.
Print Assumptions C17_invalid_key_refused.

(* rotation: with a barrier between the phases, in whatever order the nodes perform each phase,
   every node's primary key is installed on every node *)
Theorem C17_rotation_safe : forall old new ps, old <> new -> window_ok ps ->
  forall pi pj, In pi ps -> In pj ps ->
  exists prim, hd_error (ring_at_phase old new pi) = Some prim /\ In prim (ring_at_phase old new pj).
Proof. exact rotation_safe. Qed.
Print Assumptions C17_rotation_safe.

(* the defects of the pinned tree *)
Theorem C17_alias_refuted :
  let '(s, xs) := krun vtrue false (mkK [[1; 2; 3]%N] 0) [KGetKeys; KRemove 2] in
  nth 0 (arrs s) [] = [1; 3; 3]%N /\ ring s = [1; 3]%N.
Proof. exact alias_refuted. Qed.
Print Assumptions C17_alias_refuted.

Theorem C17_remove_empty_refuted :
  map kres (snd (krun vtrue false (mkK [[]] 0) [KRemove 1])) = [2%N].
Proof. exact remove_empty_refuted. Qed.
Print Assumptions C17_remove_empty_refuted.

Example C17_nonvacuous : RingInv vtrue (mkK [[1; 2; 3]%N] 0) /\ window_ok [1; 2; 2; 1].
Proof.
  split.
  - unfold RingInv, ring; cbn. repeat split; try lia. repeat constructor; cbn; intuition discriminate. repeat constructor.
  - right. left. repeat constructor; lia.
Qed.
