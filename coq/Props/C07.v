(* C07 — membership events are a serialized, faithful log of Members(). *)
From VF Require Import Base Core Core_lemmas Core_inv Core_props.

(* [ev_ok v evs v'] (Proofs/Core_props.v): delivered in order from member set v, every join is of an
   absent member, every leave/update of a present one (the leave naming it as listed, the update
   changing something), and replaying them all gives exactly v'. *)

(* one operation (claim, timer expiries during a time advance, reaping, Leave, UpdateNode):
   its events turn the member set before into the member set after -- so no change of Members()
   happens without its event and no event without its change *)
Theorem C07_step_events : forall c, fixed c = true -> forall s o, FInv c s ->
  ev_ok (view s) (no_conflict (snd (step c s o))) (view (fst (step c s o))).
Proof. exact step_events. Qed.
Print Assumptions C07_step_events.

(* every history: replaying all events delivered so far yields the current member set *)
Theorem C07_log_equals_members : forall c, fixed c = true -> forall ops s, FInv c s -> run_ok c s ops ->
  ev_ok (view s) (no_conflict (concat (snd (run c s ops)))) (view (fst (run c s ops))).
Proof. exact run_events. Qed.
Print Assumptions C07_log_equals_members.

(* from boot: the log starts with the node's own join *)
Theorem C07_boot : forall c meta, is_allowed c (self_addr c) = true -> vsn_bad (self_vsn c) = false ->
  ev_ok (fun _ => None) [EvJoin (self c) (self_addr c) meta] (view (boot c meta)).
Proof.
  intros c meta Al Vb. rewrite boot_eq by assumption. cbn [ev_ok]. split; [reflexivity|].
  intro n. unfold upd, view, lk; cbn [recs alookup]. destruct (N.eqb n (self c)); reflexivity.
Qed.
Print Assumptions C07_boot.

(* Members() (a list) is the member set (names are unique in every reachable state) *)
Theorem C07_members_is_view : forall s n a m, keys_ok s ->
  (In (n, (a, m)) (members s) <-> view s n = Some (a, m)).
Proof. exact members_view. Qed.
Print Assumptions C07_members_is_view.

(* sequential composition, used above: grammar and replay compose over concatenation *)
Theorem C07_compose : forall e1 v v1 e2 v2, ev_ok v e1 v1 -> ev_ok v1 e2 v2 -> ev_ok v (e1 ++ e2) v2.
Proof. exact ev_ok_app. Qed.
Print Assumptions C07_compose.

Example C07_nonvacuous :
  let c := cfg_ex in
  let '(s, evs) := run c (boot c 1) [OAlive 1 1 1 0 [1;5;2;0;0;0]%N false; OAlive 2 1 1 2 [1;5;2;0;0;0]%N false;
                                    ODead 2 1 1; OAlive 3 1 2 0 [1;5;2;0;0;0]%N false] in
  concat evs = [EvJoin 1 1 0; EvUpdate 1 1 2; EvLeave 1 1 2; EvJoin 1 2 0] /\ members s = [(0, (0, 1)); (1, (2, 0))]%N.
Proof. vm_compute. split; reflexivity. Qed.
