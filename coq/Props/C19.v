(* C19 — probe acknowledgements are correctly correlated, relayed and cleaned up.  Model: Model/Probe.v. *)
From VF Require Import Base Probe Probe_proofs.
Local Open Scope Z_scope.

Theorem C19_answered_iff : forall pi, p_send pi <> 2 ->
  (probe_outcome pi = Answered <->
   (exists t, In (Ack (p_seq pi) t) (p_arrivals pi) /\ t < p_interval pi) \/ tcp_contact pi = true).
Proof. exact answered_iff. Qed.
Print Assumptions C19_answered_iff.

Theorem C19_foreign_arrivals_irrelevant : forall pi extra,
  Forall (fun a => match a with Ack s _ | Nack s _ => s <> p_seq pi end) extra ->
  let pi' := mkPI (p_seq pi) (p_interval pi) (p_timeout pi) (p_send pi) (p_arrivals pi ++ extra)
                  (p_expected_nacks pi) (p_tcp pi) (p_tcp_enabled pi) in
  probe_outcome pi' = probe_outcome pi /\ probe_delta pi' = probe_delta pi.
Proof. exact foreign_arrivals_irrelevant. Qed.
Print Assumptions C19_foreign_arrivals_irrelevant.

Theorem C19_foreign_ack_noop : forall h seq now, (forall e, In e h -> fst e <> seq) -> h_ack h seq now = (false, h_advance h now).
Proof. exact foreign_ack_noop. Qed.
Print Assumptions C19_foreign_ack_noop.

Theorem C19_expired_ack_noop : forall h seq now, (forall e, In e h -> fst e = seq -> snd e <= now) -> fst (h_ack h seq now) = false.
Proof. exact expired_ack_noop. Qed.
Print Assumptions C19_expired_ack_noop.

Theorem C19_handlers_reaped : forall h now, (forall e, In e h -> snd e <= now) -> h_advance h now = [].
Proof. exact handlers_reaped. Qed.
Print Assumptions C19_handlers_reaped.

Theorem C19_ack_consumes_record : forall h seq now, fst (h_ack h seq now) = true ->
  forall e, In e (snd (h_ack h seq now)) -> fst e <> seq.
Proof. exact ack_consumes_record. Qed.
Print Assumptions C19_ack_consumes_record.

Theorem C19_relay : forall ri,
  let '(a, n) := relay_result ri in
  0 <= a <= 1 /\ 0 <= n <= 1 /\ a + n <= 1 /\ (n = 1 <-> (r_want_nack ri = true /\ a = 0)).
Proof. exact relay_exclusive. Qed.
Print Assumptions C19_relay.

Theorem C19_score_range : forall mx score delta, 1 <= mx -> 0 <= apply_delta mx score delta <= mx - 1.
Proof. exact score_range. Qed.
Print Assumptions C19_score_range.

Theorem C19_score_direction : forall mx score delta, 0 <= score <= mx - 1 ->
  (score < apply_delta mx score delta -> 0 < delta) /\ (apply_delta mx score delta < score -> delta < 0).
Proof. exact score_direction. Qed.
Print Assumptions C19_score_direction.

Theorem C19_delta : forall pi,
  (probe_delta pi < 0 -> probe_outcome pi = Answered /\ p_send pi = 0) /\
  (0 < probe_delta pi -> probe_outcome pi = Failed).
Proof. exact delta_sign. Qed.
Print Assumptions C19_delta.

Example C19_nonvacuous :
  probe_outcome (mkPI 7 1000 300 0 [Ack 8 100; Ack 7 999; Nack 7 400] 2 None true) = Answered /\
  probe_outcome (mkPI 7 1000 300 0 [Ack 8 100; Ack 7 1000; Nack 7 400] 2 None true) = Failed /\
  probe_delta (mkPI 7 1000 300 0 [Ack 8 100; Ack 7 1000; Nack 7 400] 2 None true) = 1.
Proof. vm_compute. repeat split. Qed.
