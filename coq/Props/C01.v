(* C01 — stale or weaker membership claims never override newer knowledge.
   Model: Model/Core.v (one node's SWIM state machine; one operation = one nodeLock
   critical section).  Statements only; proofs are `exact <lemma>` from Proofs/. *)
From VF Require Import Base Core Core_lemmas Core_inv Core_props.

(* ---- a stale claim is a no-op: the WHOLE node state is unchanged and nothing is emitted ---- *)

(* alive about another member, same address, incarnation not newer *)
Theorem C01_stale_alive_other : forall c s inc name addr meta vsn b r,
  alookup name (recs s) = Some r -> raddr r = addr -> name <> self c -> (inc <= rinc r)%N ->
  do_alive c s inc name addr meta vsn b = (s, []).
Proof. exact alive_stale_other. Qed.
Print Assumptions C01_stale_alive_other.

(* alive about the local node itself, strictly older *)
Theorem C01_stale_alive_self : forall c s inc addr meta vsn b r,
  alookup (self c) (recs s) = Some r -> raddr r = addr -> (inc < rinc r)%N ->
  do_alive c s inc (self c) addr meta vsn b = (s, []).
Proof. exact alive_stale_self. Qed.
Print Assumptions C01_stale_alive_self.

(* suspect about an unknown member, with an older incarnation, or about a dead/left member
   (first premise: no suspicion timer is registered for it -- an invariant of reachable states,
   [C01_timer_only_for_suspects]; or one of the two cases that do not consult the timer) *)
Theorem C01_stale_suspect : forall c s inc name from,
  no_live name (timers s) \/ (exists r, alookup name (recs s) = Some r /\ (inc < rinc r)%N) \/ alookup name (recs s) = None ->
  match alookup name (recs s) with
  | None => True
  | Some r => (inc < rinc r)%N \/ rst r = Dead \/ rst r = Left
  end ->
  do_suspect c s inc name from = (s, []).
Proof. exact suspect_stale. Qed.
Print Assumptions C01_stale_suspect.

Theorem C01_stale_dead : forall c s inc name from,
  no_live name (timers s) \/ (exists r, alookup name (recs s) = Some r /\ (inc < rinc r)%N) \/ alookup name (recs s) = None ->
  match alookup name (recs s) with
  | None => True
  | Some r => (inc < rinc r)%N \/ rst r = Dead \/ rst r = Left
  end ->
  do_dead c s inc name from = (s, []).
Proof. exact dead_stale. Qed.
Print Assumptions C01_stale_dead.

(* in every reachable state a live suspicion timer exists only for a suspected member *)
Theorem C01_timer_only_for_suspects : forall c, fixed c = true -> forall ops s,
  FInv c s -> run_ok c s ops ->
  forall t, In t (timers (fst (run c s ops))) -> tlive t = true ->
  exists r, lk (fst (run c s ops)) (tname t) = Some r /\ rst r = Suspect.
Proof. intros c _ ops s [HI _] _. exact (run_TInv c ops s (inv_t _ _ HI)). Qed.
Print Assumptions C01_timer_only_for_suspects.

(* ---- every operation moves every member's (incarnation, state) key forward, except:
        a different allowed address reclaiming a left / long-enough-dead name (alive-type claims only),
        and the reaping pass deleting an old dead/left record of another node ---- *)
Theorem C01_step_monotone : forall c, fixed c = true -> forall s o,
  FInv c s -> op_ok c s o ->
  forall n r, lk s n = Some r ->
    let s' := fst (step c s o) in
    (exists r', lk s' n = Some r' /\
        (key_le r r' \/ (exists addr, reclaim_step c s s' n addr /\
                          match o with OAlive _ n' a _ _ _ | OHandleAlive _ _ n' a _ _ | OMerge Alive _ n' a _ _ => n' = n /\ a = addr | _ => False end)))
    \/ (o = OReap /\ lk s' n = None /\ reapable c s r /\ n <> self c).
Proof. exact step_monotone. Qed.
Print Assumptions C01_step_monotone.

(* the invariant used above holds in the boot state and along every history *)
Theorem C01_reachable_inv : forall c, fixed c = true -> forall meta ops,
  is_allowed c (self_addr c) = true -> vsn_bad (self_vsn c) = false ->
  run_ok c (boot c meta) ops -> FInv c (fst (run c (boot c meta) ops)).
Proof. intros c Hf meta ops Al Vb HR. apply run_FInv; [exact Hf | apply boot_FInv; assumption | exact HR]. Qed.
Print Assumptions C01_reachable_inv.

(* non-vacuity: a concrete history meets the hypotheses *)
Example C01_hypotheses_satisfiable :
  let s := fst (run cfg_ex (boot cfg_ex 1) [OAlive 1 1 1 0 [1;5;2;0;0;0]%N false; OSuspect 1 1 2; OAdvance 1000000001]) in
  exists r, lk s 1 = Some r /\ rst r = Suspect /\ do_alive cfg_ex s 1 1 1 0 [] false = (s, []).
Proof. vm_compute. eexists. repeat split. Qed.
