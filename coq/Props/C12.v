(* C12 — the wire pipeline round-trips every message under every configuration (packet path here;
   stream path in the second half).  AES-GCM and the LZW/msgpack compress wrapper are hypotheses
   (Section variables of Proofs/Wire_proofs.v), validated on recorded values on every run. *)
From VF Require Import Base Label Wire Wire_proofs Stream Stream_proofs.
Local Open Scope N_scope.

Theorem C12_packet_roundtrip : forall seal open comp decomp,
  (forall k n p ad, open k n (seal k n p ad) ad = Some p) ->
  (forall k k' n p ad, k <> k' -> open k' n (seal k n p ad) ad = None) ->
  (forall k n p ad, length (seal k n p ad) = (length p + 16)%nat) ->
  (forall m, exists body, comp m = t_compress :: body /\ decomp body = Some m) ->
  forall cs cr pm msg nonce fuel,
  compatible cs cr -> length nonce = 12%nat -> msg_start_ok msg -> msg <> [] ->
  exists pkt, send_packet seal comp cs pm msg nonce = Ok pkt /\
    exists f', (f' = fuel \/ f' = S fuel) /\ ingest open decomp (S fuel) cr pkt = Ok (handle_command decomp f' msg)
               /\ (compress_on cs = false -> f' = S fuel).
Proof. exact packet_roundtrip_pipeline. Qed.
Print Assumptions C12_packet_roundtrip.

Theorem C12_decrypt_encrypt : forall seal open (comp : bytes -> bytes) (decomp : bytes -> option bytes),
  (forall k n p ad, open k n (seal k n p ad) ad = Some p) ->
  (forall k k' n p ad, k <> k' -> open k' n (seal k n p ad) ad = None) ->
  (forall k n p ad, length (seal k n p ad) = (length p + 16)%nat) ->
  (forall m, exists body, comp m = t_compress :: body /\ decomp body = Some m) ->
  forall c vsn k nonce m aad,
  length nonce = 12%nat -> (vsn = 0 \/ vsn = 1) -> In k (keys c) ->
  decrypt_payload open c (encrypt_payload seal vsn k nonce m aad) aad = Ok m.
Proof. intros seal open _ _ Hos Hok Hlen _. exact (decrypt_encrypt seal open Hos Hok Hlen). Qed.
Print Assumptions C12_decrypt_encrypt.

Theorem C12_pkcs7 : forall b, pkcs7_unpad_raw (pkcs7_pad b) = Ok b /\ pkcs7_valid (pkcs7_pad b) = true.
Proof. exact pkcs7_roundtrip. Qed.
Print Assumptions C12_pkcs7.

Theorem C12_crc_header : forall x, x < 4294967296 -> match be32 x with [a; b; c; d] => rd32 a b c d = x | _ => False end.
Proof. exact rd32_be32. Qed.
Print Assumptions C12_crc_header.

(* stream path: rawSendMsgStream (+ encryptLocalState) then readStream (+ decryptRemoteState):
   the peer gets the message type and body back, for user messages (any payload incl. the empty one),
   push/pull state and pings alike *)
Theorem C12_stream_roundtrip : forall seal open comp decomp,
  (forall k n p ad, open k n (seal k n p ad) ad = Some p) ->
  (forall k k' n p ad, k <> k' -> open k' n (seal k n p ad) ad = None) ->
  (forall k n p ad, length (seal k n p ad) = (length p + 16)%nat) ->
  (forall m, exists body, comp m = t_compress :: body /\ decomp body = Some m) ->
  forall cs cr label t body nonce,
  length nonce = 12%nat -> (encvsn cs = 0 \/ encvsn cs = 1) ->
  t <> t_compress -> t <> t_encrypt ->
  encrypted_length (encvsn cs) (blen (if compress_on cs then comp (t :: body) else t :: body)) <= max_push_state_bytes ->
  ((enc_on cs && verify_out cs = true /\ In (primary cs) (keys cr)) \/ (enc_on cs && verify_out cs = false /\ enc_on cr = false)) ->
  read_stream open decomp cr label (stream_frame seal comp cs label (t :: body) nonce) = SOk t body.
Proof. exact stream_roundtrip. Qed.
Print Assumptions C12_stream_roundtrip.

Example C12_crc_check_value : crc32 [49;50;51;52;53;54;55;56;57] = 3421780262.
Proof. vm_compute. reflexivity. Qed.
