(* C20 — lifecycle safety.  Models: Model/Lifecycle.v (API x lifecycle stage), Model/Core.v (why the
   accessors cannot fail: the own record is never reaped).  Data races, deadlocks and goroutine
   termination are runtime behaviours: observed by the harness (-race stress, bubble exit), not proved. *)
From VF Require Import Base Lifecycle Lifecycle_proofs Core Core_lemmas Core_inv.

(* over every sequence of public calls and background steps (time passing, reaping) that does not
   call Leave after Shutdown, no call panics *)
Theorem C20_no_panic : forall cs s, self_present s = true -> allowed_seq (shut s) cs = true ->
  Forall (fun r => lpanic r = false) (snd (lrun true s cs)).
Proof. exact no_panic. Qed.
Print Assumptions C20_no_panic.

Theorem C20_shutdown_idempotent : forall s, let s1 := fst (lstep true s LShutdown) in lstep true s1 LShutdown = (s1, mkLR false false).
Proof. exact shutdown_idempotent. Qed.
Print Assumptions C20_shutdown_idempotent.

Theorem C20_leave_idempotent : forall s, shut s = false -> self_present s = true ->
  let s1 := fst (lstep true s LLeave) in lstep true s1 LLeave = (s1, mkLR false false).
Proof. exact leave_idempotent. Qed.
Print Assumptions C20_leave_idempotent.

(* Shutdown closes the transport first; afterwards no call uses the network *)
Theorem C20_silent_after_shutdown : forall cs s, shut s = true -> transport_open s = false ->
  Forall (fun r => lsent r = false) (snd (lrun true s cs)).
Proof. intros cs s _. apply closed_transport_silent. Qed.
Print Assumptions C20_silent_after_shutdown.

Theorem C20_shutdown_closes_transport : forall s, let s1 := fst (lstep true s LShutdown) in shut s1 = true /\ transport_open s1 = false.
Proof. exact shutdown_closes_transport. Qed.
Print Assumptions C20_shutdown_closes_transport.

(* the membership model: the node's own record survives every operation, in particular every reaping
   pass after it has left and aged out *)
Theorem C20_self_record_kept : forall c, fixed c = true -> forall s o r,
  FInv c s -> op_ok c s o -> lk s (self c) = Some r -> exists r', lk (fst (step c s o)) (self c) = Some r'.
Proof. exact self_record_kept. Qed.
Print Assumptions C20_self_record_kept.

(* the defects of the pinned tree *)
Theorem C20_localnode_refuted :
  map lpanic (snd (lrun false l0 [LLeave; LAdvance; LReap; LLocalNode; LUpdateNode])) = [false; false; false; true; true].
Proof. exact localnode_refuted. Qed.
Print Assumptions C20_localnode_refuted.

Theorem C20_dial_after_shutdown_refuted : map lsent (snd (lrun false l0 [LShutdown; LSendReliable])) = [false; true].
Proof. exact dial_after_shutdown_refuted. Qed.
Print Assumptions C20_dial_after_shutdown_refuted.
