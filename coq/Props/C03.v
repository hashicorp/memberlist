(* C03 — a crashed member is removed by every live node within a bounded time.
   Model: Model/Cursor.v (probe schedule).  The probe outcome and the suspicion timer are the
   subjects of C19 and C06; the last theorem composes the three into the bound the monitor applies. *)
From VF Require Import Base Core Core_lemmas Cursor Cursor_proofs Probe Probe_proofs.

(* never itself, never a Dead/Left peer: [el] is "not this node and not Dead/Left" at the tick *)
Theorem C03_never_self_or_dead : forall el rs s s' x w,
  tick el rs s = (s', Some x, w) -> idx s <= length (order s) ->
  el x = true /\ (In x (order s) \/ In x rs).
Proof. exact tick_selects_eligible. Qed.
Print Assumptions C03_never_self_or_dead.

(* at least once per pass for every peer that is in the list when the pass begins and probe-able
   at every tick of it — under arbitrary insertions, status changes and shuffles *)
Theorem C03_pass_visits_all : forall o acts c sn,
  In (c, sn) (passes (grun (ginit0 o) acts)) -> incl c sn.
Proof. exact pass_visits_all. Qed.
Print Assumptions C03_pass_visits_all.

(* exactly once each while membership is stable *)
Theorem C03_stable_pass_exact : forall el o acts c sn,
  Forall (only_ticks el) acts -> In (c, sn) (passes (grun (ginit0 o) acts)) -> rev sn = c.
Proof. exact stable_pass_exact. Qed.
Print Assumptions C03_stable_pass_exact.

(* a peer that stays listed and probe-able is handed to probeNode within 2n ticks (two passes) *)
Theorem C03_two_passes : forall v n ts s,
  RI v n s -> Forall (tick_ok v n) ts -> 2 * n <= length ts ->
  exists k, k < 2 * n /\ nth_error (tick_run s ts) k = Some (Some v).
Proof. exact ticks_until_selected. Qed.
Print Assumptions C03_two_passes.

(* the hypothesis "the list resetNodes leaves behind still contains the peer" ([tick_ok]) on the Core model of
   the reap: every record that is not Dead/Left survives it, and only old Dead/Left ones go *)
Theorem C03_reap_keeps_live : forall c s n r,
  lk s n = Some r -> dead_or_left (rst r) = false -> lk (do_reap c s) n = Some r.
Proof. exact reap_keeps_live. Qed.
Print Assumptions C03_reap_keeps_live.

Theorem C03_reap_removes_only_old_dead : forall c s n r,
  keys_ok s -> lk s n = Some r -> lk (do_reap c s) n = None ->
  dead_or_left (rst r) = true /\ (gtd c < now s - rsince r)%Z.
Proof. exact reap_removes_only_old_dead. Qed.
Print Assumptions C03_reap_removes_only_old_dead.

(* a probe of a member that answers nothing fails (Probe model; then the node suspects it, and the suspicion
   ends in Dead by start + max: C06_bounds) *)
Theorem C03_silent_target_fails : forall pi,
  p_send pi <> 2%Z -> p_tcp pi = None ->
  Forall (fun a => match a with Ack s _ => s <> p_seq pi | Nack _ _ => True end) (p_arrivals pi) ->
  probe_outcome pi = Failed.
Proof. exact silent_target_fails. Qed.
Print Assumptions C03_silent_target_fails.

(* the time bound: two full passes at the slowest awareness-scaled pace plus the maximum suspicion timeout *)
Theorem C03_compose : forall (n : nat) pi awmax smax tc (starts : list Z) k tk e dl,
  (0 <= pi -> 1 <= awmax ->
  paced (awmax * pi) (tc + pi - awmax * pi) starts ->
  (k < 2 * n)%nat -> nth_error starts k = Some tk ->
  e <= tk + awmax * pi -> dl <= e + smax ->
  dl <= tc + detect_bound (Z.of_nat n) pi awmax smax)%Z.
Proof. exact detection_composes. Qed.
Print Assumptions C03_compose.

(* non-vacuity: a four-entry list, node 0 probing, node 2 dead; an insertion in the middle of a pass *)
Example C03_example :
  let el := fun x => negb (N.eqb x 0) && negb (N.eqb x 2) in
  let rs1 := [3; 1; 0; 4; 2]%N in let rs2 := [1; 3; 4; 0; 2]%N in
  let g := grun (ginit0 [0; 1; 2; 3]%N)
                [ATick el rs1; AInsert 4%N 1; ATick el rs1; ATick el rs1; ATick el rs1; ATick el rs1;
                 ATick el rs1; ATick el rs2; ATick el rs2; ATick el rs2] in
  rev (sels g) = [Some 1; Some 3; Some 1; Some 3; Some 1; Some 4; Some 1; Some 3; Some 4]%N /\
  passes g = [([3; 1; 4], [4; 1; 3]); ([1; 3], [1; 3; 1])]%N.
Proof. vm_compute. split; reflexivity. Qed.
