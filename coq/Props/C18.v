(* C18 — the CIDR allowlist is enforced on every admission path.
   [is_allowed c a] is true when no allowlist is configured or [a] lies in it; the theorems are
   parametric in the list (the harness fills it with net.IPNet.Contains on the test addresses). *)
From VF Require Import Base Core Core_lemmas Core_inv Core_props.

(* in every reachable state, every record -- hence every member -- carries an allowed address *)
Theorem C18_records_allowed : forall c, fixed c = true -> forall ops s, FInv c s -> run_ok c s ops ->
  forall n r, lk (fst (run c s ops)) n = Some r -> is_allowed c (raddr r) = true.
Proof. intros c Hf ops s [HI K] _. exact (run_allowed c Hf ops s (inv_allowed _ _ HI) K). Qed.
Print Assumptions C18_records_allowed.

Theorem C18_members_allowed : forall c, fixed c = true -> forall ops s, FInv c s -> run_ok c s ops ->
  forall n a m, In (n, (a, m)) (members (fst (run c s ops))) -> is_allowed c a = true.
Proof.
  intros c Hf ops s HI HR n a m Hin. pose proof (run_FInv c Hf ops s HI HR) as [HI' K].
  apply (members_view _ _ _ _ K) in Hin. unfold view in Hin.
  destruct (lk (fst (run c s ops)) n) as [r|] eqn:L; [|discriminate].
  destruct (dead_or_left (rst r)); [discriminate|]. inversion Hin; subst. eapply (inv_allowed _ _ HI'). exact L.
Qed.
Print Assumptions C18_members_allowed.

(* every join / leave / update event of every operation announces an allowed address *)
Theorem C18_events_allowed : forall c, fixed c = true -> forall s o, FInv c s -> op_ok c s o ->
  Forall (ev_allowed c) (snd (step c s o)).
Proof. intros c Hf s o [HI K] _. apply (step_allowed c Hf); [apply HI | exact K]. Qed.
Print Assumptions C18_events_allowed.

(* alive gossip from a disallowed source address, or claiming a disallowed address, is ignored entirely *)
Theorem C18_source_gate : forall c s src inc name addr meta vsn,
  is_allowed c src = false \/ is_allowed c addr = false ->
  step c s (OHandleAlive src inc name addr meta vsn) = (s, []).
Proof. exact handle_alive_gate. Qed.
Print Assumptions C18_source_gate.

(* on every other path (push/pull entry, piggyback, address change, name reclaim): a claim whose
   address is disallowed and differs from what the node holds is a no-op *)
Theorem C18_no_disallowed_adoption : forall c s inc name addr meta vsn b,
  is_allowed c addr = false ->
  (forall r, alookup name (recs s) = Some r -> raddr r <> addr) ->
  do_alive c s inc name addr meta vsn b = (s, []).
Proof. exact alive_disallowed. Qed.
Print Assumptions C18_no_disallowed_adoption.

Example C18_nonvacuous :
  let c := mkCfg 0 0 [1;5;2;0;0;0]%N 0 30000000000 2 4000000000 6 [] 8 true true [0;1;2]%N true in
  let s := boot c 0 in
  is_allowed c 3 = false /\ do_alive c s 5 1 3 0 [] false = (s, []) /\
  fst (step c s (OHandleAlive 3 5 1 1 0 [])) = s /\
  members (fst (do_alive c s 5 1 1 0 [] false)) = [(0, (0, 0)); (1, (1, 0))]%N.
Proof. vm_compute. repeat split. Qed.
