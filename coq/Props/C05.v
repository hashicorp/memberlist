(* C05 — views re-converge to the live set once faults stop.
   Models: Model/Core.v, Model/Cluster.v (the general cluster: failed probes, timers, accusations,
   refutations, gossip, push/pull, duplication/reordering/loss, UpdateNode, Leave).
   What is proved is the safety half the convergence argument rests on — no claim ever outruns its
   subject, so a refutation outranks everything and is accepted wherever it arrives.  What is NOT proved,
   and is false as the property is worded: that the refutation (or anything else) ever arrives — see the
   end of this file. *)
From VF Require Import Base Core Core_lemmas Core_inv Core_props Cluster Cluster_proofs Below_proofs Below_cluster Below_restart Exchange Heal_proofs Heal_cluster.

(* in every reachable state of the cluster, under every schedule, every claim about a member — a record
   held by any node, a broadcast queued anywhere, anything ever put on the network — carries at most
   that member's own incarnation counter *)
Theorem C05_claims_below_owner : forall cs acts,
  Forall (fun cm => good_cfg (fst cm)) cs -> NoDup (map (fun cm => self (fst cm)) cs) ->
  grun_ok (boot_world cs) acts ->
  let w := fst (grun (boot_world cs) acts) in
  forall cx sx, In (cx, sx) (wnodes w) ->
    (forall c s n r, In (c, s) (wnodes w) -> lk s n = Some r -> n = self cx -> (rinc r <= linc sx)%N) /\
    (forall c s k m, In (c, s) (wnodes w) -> In (k, m) (bq s) -> mname m = self cx -> (minc m <= linc sx)%N) /\
    (forall p, In p (wpool w) -> pname p = self cx -> (pinc p <= linc sx)%N).
Proof. exact claims_below_owner. Qed.
Print Assumptions C05_claims_below_owner.

(* the inductive step: one action of the cluster keeps the invariant [BW] *)
Theorem C05_step_invariant : forall w g, BW w -> gact_ok w g ->
  BW (fst (gstep w g)) /\ (forall n inc, owner_le w n inc -> owner_le (fst (gstep w g)) n inc).
Proof. exact gstep_BW. Qed.
Print Assumptions C05_step_invariant.

(* false accusations do not stick: a running member that hears an accusation at or above its record's
   incarnation moves strictly above every record of it held anywhere, every queued broadcast about it and
   everything ever sent about it, and queues its alive message *)
Theorem C05_refutation_outranks_all : forall w i c s r inc from,
  BW w -> nth_error (wnodes w) i = Some (c, s) -> leaving s = false ->
  lk s (self c) = Some r -> rst r = Alive -> (rinc r <= inc)%N -> below_max inc -> below_max (linc s) ->
  let s' := fst (do_suspect c s inc (self c) from) in
  s' = refute c s r inc /\
  alookup (kaddr (raddr r)) (bq s') = Some (BAlive (linc s') (self c) (raddr r) (rmeta r) (rvsn r)) /\
  (forall cj sj rj, In (cj, sj) (wnodes w) -> lk sj (self c) = Some rj -> (rinc rj < linc s')%N) /\
  (forall cj sj k m, In (cj, sj) (wnodes w) -> In (k, m) (bq sj) -> mname m = self c -> (minc m < linc s')%N) /\
  (forall p, In p (wpool w) -> pname p = self c -> (pinc p < linc s')%N).
Proof. exact refutation_outranks_all. Qed.
Print Assumptions C05_refutation_outranks_all.

(* the same for a dead claim *)
Theorem C05_accusation_refuted : forall c s inc from r,
  Inv c s -> leaving s = false -> lk s (self c) = Some r -> rst r = Alive -> (rinc r <= inc)%N ->
  do_suspect c s inc (self c) from = (refute c s r inc, []) /\
  do_dead c s inc (self c) from = (refute c s r inc, []).
Proof. intros. split; [apply suspect_self_refuted | apply dead_self_refuted]; assumption. Qed.
Print Assumptions C05_accusation_refuted.

(* ... and whoever processes that alive message while holding any older record of the member at the
   same address — Alive, Suspect, Dead or Left — lists it alive with the metadata the message carries *)
Theorem C05_refutation_accepted : forall c s inc name addr meta vsn r,
  lk s name = Some r -> name <> self c -> raddr r = addr -> (rinc r < inc)%N -> vsn_bad vsn = false ->
  let s' := fst (do_alive c s inc name addr meta vsn false) in
  exists r', lk s' name = Some r' /\ rst r' = Alive /\ rinc r' = inc /\ raddr r' = addr /\ rmeta r' = meta.
Proof. exact newer_alive_accepted. Qed.
Print Assumptions C05_refutation_accepted.

(* push/pull: an entry that reports a member Alive at incarnation i lifts the receiver's record of that member
   (same address) to at least i, whatever it held, and never lowers it *)
Theorem C05_exchange_lifts_alive : forall c s inc name addr meta vsn r,
  lk s name = Some r -> name <> self c -> raddr r = addr -> vsn_bad vsn = false ->
  exists r', lk (fst (do_merge c s Alive inc name addr meta vsn)) name = Some r' /\ (inc <= rinc r')%N /\ (rinc r <= rinc r')%N.
Proof. exact merge_alive_lifts. Qed.
Print Assumptions C05_exchange_lifts_alive.

(* hearsay (a peer's Suspect/Dead entry in a push/pull) never removes a member: C09_hearsay *)
Theorem C05_hearsay_only_suspects : forall c s rs inc n addr meta vsn r,
  Inv c s -> lk s n = Some r -> rst r = Alive -> n <> self c -> (rs = Dead \/ rs = Suspect) ->
  let '(s', evs) := do_merge c s rs inc n addr meta vsn in
  evs = [] /\ view s' n = view s n.
Proof. exact hearsay_keeps_member. Qed.
Print Assumptions C05_hearsay_only_suspects.

(* non-vacuity: three nodes learn each other; node 1's probe of member 2 fails and the suspicion is
   gossiped; member 2 hears it, refutes (incarnation 2) and node 1 accepts the refutation; member 2's own
   probe of member 3 fails and its timer fires *)
Definition cfgn (n : N) : cfg :=
  mkCfg n n [1;5;2;0;0;0]%N 0 30000000000 2 4000000000 6 [24000000000;11381000000;4000000000]%Z 8 true false [] true.
Definition sched : list gact :=
  [GA (WSnapshot 0); GA (WSnapshot 1); GA (WSnapshot 2);
   GA (WDeliver 0 0); GA (WDeliver 0 1); GA (WDeliver 1 1); GA (WDeliver 1 2); GA (WDeliver 2 2); GA (WDeliver 2 0); GA (WDeliver 1 0);
   GProbeFail 0 2; GA (WGossip 0); GA (WDeliver 1 0); GA (WDeliver 1 1); GA (WDeliver 1 2); GA (WGossip 1);
   GA (WDeliver 0 0); GA (WDeliver 0 1); GA (WDeliver 0 2); GA (WDeliver 0 3); GA (WDeliver 0 4);
   GProbeFail 1 3; GA (WAdvance 1 30000000000); GA (WGossip 1)].
Example C05_nonvacuous :
  let cs := [(cfgn 1, 10%N); (cfgn 2, 20%N); (cfgn 3, 30%N)] in
  Forall (fun cm => good_cfg (fst cm)) cs /\ NoDup (map (fun cm => self (fst cm)) cs) /\
  grun_ok (boot_world cs) sched /\
  let '(w, evs) := grun (boot_world cs) sched in
  map (fun cs => (linc (snd cs), map (fun p => (fst p, rinc (snd p), rst (snd p))) (recs (snd cs)))) (wnodes w) =
    [(1, [(1, 1, Alive); (3, 1, Alive); (2, 2, Alive)]);
     (2, [(2, 2, Alive); (1, 1, Alive); (3, 1, Dead)]);
     (1, [(3, 1, Alive); (1, 1, Alive)])]%N /\
  evs = [EvJoin 3 3 30; EvJoin 2 2 20; EvJoin 1 1 10; EvJoin 1 1 10; EvJoin 3 3 30; EvLeave 3 3 30]%N.
Proof.
  cbv zeta. split; [|split; [|split]].
  - repeat constructor.
  - cbn. repeat constructor; cbn; intuition discriminate.
  - apply grun_okb_ok. vm_compute. reflexivity.
  - vm_compute. split; reflexivity.
Qed.

(* ---------- members that crash and come back under the same name ---------- *)
(* A restarted member starts again at incarnation 1 while claims from its earlier life are still held by
   others and still on the network, so "at most the owner's current counter" stops being an invariant
   (the example below reaches such a state).  For every schedule of the cluster with restarts: every claim
   about a member carries an incarnation the member itself reached at some moment of the run, or a lower one *)
Theorem C05_claims_below_history : forall cs acts,
  Forall (fun cm => good_cfg (fst cm)) cs -> NoDup (map (fun cm => self (fst cm)) cs) ->
  rrun_ok (boot_world cs) acts ->
  let w := fst (rrun (boot_world cs) [boot_world cs] acts) in
  let tr := snd (rrun (boot_world cs) [boot_world cs] acts) in
  (forall c s n r, In (c, s) (wnodes w) -> lk s n = Some r -> hle tr n (rinc r)) /\
  (forall c s k m, In (c, s) (wnodes w) -> In (k, m) (bq s) -> hle tr (mname m) (minc m)) /\
  (forall p, In p (wpool w) -> hle tr (pname p) (pinc p)).
Proof. exact claims_below_history. Qed.
Print Assumptions C05_claims_below_history.

(* the inductive step with restarts *)
Theorem C05_restart_step : forall tr w a, RW tr w -> ract_ok w a -> RW (rstep w a :: tr) (rstep w a).
Proof. exact rstep_RW. Qed.
Print Assumptions C05_restart_step.

(* a member — freshly restarted or not — that hears an accusation at or above its own record (for a
   restarted member: any claim left over from its earlier life) moves strictly above it and queues its
   alive message; by C05_refutation_accepted whoever holds the older record then lists it alive *)
Theorem C05_restarted_member_overtakes : forall c s r inc from,
  Inv c s -> leaving s = false -> lk s (self c) = Some r -> rst r = Alive -> (rinc r <= inc)%N ->
  below_max inc -> below_max (linc s) ->
  let s' := fst (do_suspect c s inc (self c) from) in
  (inc < linc s')%N /\ (linc s < linc s')%N /\
  alookup (kaddr (raddr r)) (bq s') = Some (BAlive (linc s') (self c) (raddr r) (rmeta r) (rvsn r)).
Proof. exact restarted_member_overtakes. Qed.
Print Assumptions C05_restarted_member_overtakes.

(* non-vacuity: member 1 updates its metadata (incarnation 2) and member 2 learns it; member 1 crashes and
   restarts (incarnation 1) — member 2 now holds a record of it ABOVE its counter; member 2's push/pull
   state reaches member 1, which jumps to incarnation 3, and member 2 accepts that *)
Definition rsched1 : list ract :=
  [RA (GA (WSnapshot 0)); RA (GA (WDeliver 1 0)); RA (GA (WUpdate 0 11 0)); RA (GA (WGossip 0)); RA (GA (WDeliver 1 0));
   RRestart 0 12].
Definition rsched2 : list ract :=
  [RA (GA (WSnapshot 1)); RA (GA (WDeliver 0 1)); RA (GA (WGossip 0)); RA (GA (WDeliver 1 1))].
Definition rview (w : world) :=
  map (fun cs => (linc (snd cs), map (fun p => (fst p, rinc (snd p), rst (snd p))) (recs (snd cs)))) (wnodes w).
Example C05_restart_nonvacuous :
  let cs := [(cfgn 1, 10%N); (cfgn 2, 20%N)] in
  Forall (fun cm => good_cfg (fst cm)) cs /\ NoDup (map (fun cm => self (fst cm)) cs) /\
  rrun_ok (boot_world cs) (rsched1 ++ rsched2) /\
  rview (fst (rrun (boot_world cs) [boot_world cs] rsched1)) =
    [(1, [(1, 1, Alive)]); (1, [(2, 1, Alive); (1, 2, Alive)])]%N /\
  rview (fst (rrun (boot_world cs) [boot_world cs] (rsched1 ++ rsched2))) =
    [(3, [(1, 3, Alive)]); (1, [(2, 1, Alive); (1, 3, Alive)])]%N.
Proof.
  cbv zeta. split; [|split; [|split; [|split]]].
  - repeat constructor.
  - cbn. repeat constructor; cbn; intuition discriminate.
  - apply rrun_okb_ok. vm_compute. reflexivity.
  - vm_compute. reflexivity.
  - vm_compute. reflexivity.
Qed.

(* ---------- anti-entropy heals a pair (a liveness step, proved for EVERY pair of node states) ---------- *)
(* x is a running node that has not called Leave and lists itself alive (C02: every reachable state);
   y holds about x nothing at all, or ANY record at x's address — a stale incarnation, Suspect, Dead,
   Left, stale metadata, even an incarnation x never reached (a restart).  After two complete push/pull
   exchanges between them (each = both sides write their whole state, then both merge what they read,
   entry by entry) y lists x alive with x's address and current metadata, and x still lists itself with
   them.  No cluster invariant and no fairness premise is used: the exchange itself forces the refutation
   (x reads y's accusation, moves above it) and delivers it (the second exchange carries the new
   incarnation).  This is the step the convergence argument of the property rests on; that the pair ever
   exchanges is what the connectivity premise is for, and is not proved (see the end of this file). *)
Theorem C05_two_exchanges_heal : forall cx sx cy sy rx,
  keys_ok sx -> keys_ok sy -> self cx <> self cy ->
  SelfGood cx sx rx -> (0 < rinc rx)%N -> vsn_bad (rvsn rx) = false -> below_max (linc sx) ->
  ((lk sy (self cx) = None /\ is_allowed cy (raddr rx) = true) \/
   (exists ry, lk sy (self cx) = Some ry /\ raddr ry = raddr rx /\ vsn_bad (rvsn ry) = false /\ below_max (rinc ry))) ->
  let '(sx2, sy2) := pushpull2 cx sx cy sy in
  (exists r', lk sy2 (self cx) = Some r' /\ rst r' = Alive /\ raddr r' = raddr rx /\ rmeta r' = rmeta rx) /\
  (exists rx2, SelfGood cx sx2 rx2 /\ raddr rx2 = raddr rx /\ rmeta rx2 = rmeta rx).
Proof. exact two_pushpulls_heal. Qed.
Print Assumptions C05_two_exchanges_heal.

(* both directions at once, in terms of what Members() shows *)
Theorem C05_two_exchanges_heal_mutual : forall cx sx cy sy rx ry,
  self cx <> self cy -> heal_self cx sx rx -> heal_self cy sy ry ->
  heal_prior cy sy cx rx -> heal_prior cx sx cy ry ->
  let '(sx2, sy2) := pushpull2 cx sx cy sy in
  listed sy2 (self cx) = Some (raddr rx, rmeta rx) /\ listed sx2 (self cy) = Some (raddr ry, rmeta ry) /\
  listed sx2 (self cx) = Some (raddr rx, rmeta rx) /\ listed sy2 (self cy) = Some (raddr ry, rmeta ry).
Proof. exact two_pushpulls_heal_mutual. Qed.
Print Assumptions C05_two_exchanges_heal_mutual.

(* while it merges a whole state list a running node keeps listing itself with its address and metadata,
   and every entry about itself at or above its incarnation that is not an exact echo of its own record
   has been outranked when the merge ends: no false accusation carried by a push/pull sticks *)
Theorem C05_merge_refutes_every_accusation : forall c l, NoDup (map fst l) -> forall s r, SelfGood c s r ->
  (forall q, In (self c, q) l -> below_max (rinc q) /\ below_max (linc s)) ->
  exists r', SelfGood c (merge_all c s (map ent l)) r' /\ raddr r' = raddr r /\ rmeta r' = rmeta r /\ rvsn r' = rvsn r
    /\ (rinc r <= rinc r')%N
    /\ (forall q, In (self c, q) l -> raddr q = raddr r -> vsn_bad (rvsn q) = false -> (rinc r <= rinc q)%N ->
          (rst q = Alive /\ rinc q = rinc r /\ rmeta q = rmeta r) \/ (rinc q < rinc r')%N).
Proof. exact x_merges. Qed.
Print Assumptions C05_merge_refutes_every_accusation.

(* non-vacuity, and "two" is tight: member 1 updates its metadata (incarnation 2); member 2 — which knew it
   at incarnation 1 — is then told by somebody that member 1 is dead at incarnation 2 and believes it.
   One exchange: member 1 refutes (incarnation 3) but member 2 has merged the OLD snapshot and still
   holds it Dead, i.e. does not list it; the second exchange delivers the refutation. *)
Definition hx0 : nstate := fst (step (cfgn 1) (boot (cfgn 1) 10) (OUpdate 11 0)).
Definition hy0 : nstate :=
  fst (run (cfgn 2) (boot (cfgn 2) 20) [OAlive 1 1 1 10 [1;5;2;0;0;0]%N false; OAlive 2 1 1 11 [1;5;2;0;0;0]%N false; ODead 2 1 3]).
Example C05_heal_nonvacuous :
  (exists rx ry, heal_self (cfgn 1) hx0 rx /\ heal_self (cfgn 2) hy0 ry /\ heal_prior (cfgn 2) hy0 (cfgn 1) rx /\ heal_prior (cfgn 1) hx0 (cfgn 2) ry) /\
  listed hy0 1 = None /\
  (let '(sx1, sy1) := pushpull (cfgn 1) hx0 (cfgn 2) hy0 in
   listed sy1 1 = None /\ linc sx1 = 3%N /\ listed sx1 2 = Some (2, 20)%N) /\
  (let '(sx2, sy2) := pushpull2 (cfgn 1) hx0 (cfgn 2) hy0 in
   listed sy2 1 = Some (1, 11)%N /\ listed sx2 2 = Some (2, 20)%N /\
   map (fun p => (fst p, rinc (snd p), rst (snd p))) (recs sy2) = [(2, 1, Alive); (1, 3, Alive)]%N).
Proof.
  split.
  - exists (mkRec 2 Alive 1 11 [1;5;2;0;0;0]%N 0), (mkRec 1 Alive 2 20 [1;5;2;0;0;0]%N 0).
    unfold heal_self, heal_prior, SelfGood, keys_ok, no_live, below_max.
    split; [|split; [|split]].
    + split; [vm_compute; repeat constructor; cbn; intuition discriminate|]. repeat split; vm_compute; reflexivity.
    + split; [vm_compute; repeat constructor; cbn; intuition discriminate|]. repeat split; vm_compute; reflexivity.
    + right. eexists. split; [vm_compute; reflexivity|]. repeat split; vm_compute; reflexivity.
    + left. split; vm_compute; reflexivity.
  - vm_compute. repeat split; reflexivity.
Qed.

(* an exchange IS a schedule of the cluster model — both nodes put their whole state on the network, then each
   processes the other's entries in order — so every theorem about every schedule (C05_claims_below_owner, ...)
   holds across exchanges, and nothing else in the cluster is touched *)
Theorem C05_exchange_is_a_schedule : forall w i j ci si cj sj,
  i <> j -> nth_error (wnodes w) i = Some (ci, si) -> nth_error (wnodes w) j = Some (cj, sj) ->
  let w' := fst (wrun w (exchange_sched w i j)) in
  nth_error (wnodes w') i = Some (ci, fst (pushpull ci si cj sj)) /\
  nth_error (wnodes w') j = Some (cj, snd (pushpull ci si cj sj)) /\
  (forall k, k <> i -> k <> j -> nth_error (wnodes w') k = nth_error (wnodes w) k) /\
  wpool w' = snapshot sj ++ snapshot si ++ wpool w.
Proof. exact exchange_is_a_schedule. Qed.
Print Assumptions C05_exchange_is_a_schedule.

(* ... and in ANY state the cluster can reach (BW: the invariant every schedule from booted nodes with distinct
   names preserves — failed probes, accusations, timers, loss, duplication, reordering included), two members that
   have not called Leave and hold each other's address (or nothing) list each other alive with current metadata after
   the two-exchange schedule *)
Theorem C05_heal_in_reachable : forall w i j ci si cj sj,
  BW w -> i <> j -> nth_error (wnodes w) i = Some (ci, si) -> nth_error (wnodes w) j = Some (cj, sj) ->
  leaving si = false -> leaving sj = false ->
  forall ri rj, lk si (self ci) = Some ri -> lk sj (self cj) = Some rj ->
  (0 < rinc ri)%N -> (0 < rinc rj)%N -> vsn_bad (rvsn ri) = false -> vsn_bad (rvsn rj) = false ->
  below_max (linc si) -> below_max (linc sj) ->
  heal_prior cj sj ci ri -> heal_prior ci si cj rj ->
  let w' := fst (wrun w (exchange2_sched w i j)) in
  exists si' sj', nth_error (wnodes w') i = Some (ci, si') /\ nth_error (wnodes w') j = Some (cj, sj') /\
    listed sj' (self ci) = Some (raddr ri, rmeta ri) /\ listed si' (self cj) = Some (raddr rj, rmeta rj) /\
    listed si' (self ci) = Some (raddr ri, rmeta ri) /\ listed sj' (self cj) = Some (raddr rj, rmeta rj).
Proof. exact heal_in_reachable. Qed.
Print Assumptions C05_heal_in_reachable.

(* The property as worded ("if the live nodes' member lists still connect them ... then every live node's
   Members() is exactly the live set") is FALSE of the implementation: known finding D-C05, with a
   deterministic two-node replay in corpus/cluster/defects.json that the check re-runs on every invocation.
   The network pool of this model never forgets a message, so the decisive fact of that history — the
   refutation's retransmissions are used up while nobody can hear them, and nothing re-sends it because
   accusations at the stale incarnation are ignored by their subject, acknowledgements do not clear a
   suspicion and push/pull only ever picks Alive peers — is outside what this model can express; no
   [_refuted] theorem is therefore stated here.  What IS proved about liveness is the pairwise step above
   (C05_two_exchanges_heal: any two running nodes that complete two push/pull exchanges list each other
   with current metadata, whatever they held); that every pair the connectivity premise connects
   eventually exchanges is not a theorem of any faithful model (peer selection is random in the code, and
   pushPull() only picks peers held Alive — which is the substance of D-C05). *)
