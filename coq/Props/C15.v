(* C15 — outbound confidentiality (packet path here; stream path in the second half). *)
From VF Require Import Base Label Wire Wire_proofs Stream Stream_proofs.

(* with a keyring and outgoing verification on, whatever rawSendMsgPacket hands to the (label
   wrapping) transport is: the cleartext label header, the version byte, the nonce, and the AEAD
   sealing under the PRIMARY key with the label as associated data -- for every message, peer
   version, compression and checksum setting *)
Theorem C15_packet_sealed : forall seal comp c pm msg nonce,
  enc_on c = true -> verify_out c = true -> label_ok (plabel c) ->
  exists body, send_packet seal comp c pm msg nonce =
    Ok (label_header (plabel c) ++ encvsn c :: nonce ++
        seal (primary c) nonce (if N.eqb (encvsn c) 0 then pkcs7_pad body else body) (plabel c)).
Proof. exact packet_sealed. Qed.
Print Assumptions C15_packet_sealed.

(* streams (user messages, both directions of push/pull, TCP pings and their acks, error replies all
   go through rawSendMsgStream): encryptMsg || length || version || nonce || sealing under the
   primary key, with  encryptMsg || length || label  as associated data *)
Theorem C15_stream_sealed : forall seal comp c label payload nonce,
  enc_on c = true -> verify_out c = true ->
  exists s1, stream_frame seal comp c label payload nonce =
    let hdr := t_encrypt :: be32 (encrypted_length (encvsn c) (blen s1)) in
    hdr ++ encvsn c :: nonce ++ seal (primary c) nonce (if N.eqb (encvsn c) 0 then pkcs7_pad s1 else s1) (hdr ++ label).
Proof. exact stream_sealed. Qed.
Print Assumptions C15_stream_sealed.
