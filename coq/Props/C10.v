(* C10 — broadcast queue: no silent loss, exactly-once completion, bounded retransmits.
   Statements only; every proof is `exact <lemma of Proofs/Queue_proofs.v>`.
   Model: Model/Queue.v with fixed = true (the repaired code; the two defects of
   the pinned tree are the *_refuted examples). *)
From Coq Require Import Permutation.
From VF Require Import Base Queue Queue_proofs.

(* Every operation sequence (any sizes, kinds, limits, overheads >= 0, retransmit
   limits, prune arguments) runs to the end on the model, no call panics, and the
   multiset of broadcasts ever queued equals (still queued) + (completion callback ran). *)
Theorem C10_accounting : forall ops, Forall wf_op ops ->
  exists s xs, run true q0 ops = Some (s, xs) /\ length xs = length ops
    /\ Forall (fun x => pan x = false) xs
    /\ Permutation (all_queued ops) (map uid (items s) ++ all_fin xs).
Proof. exact history_accounting. Qed.
Print Assumptions C10_accounting.

(* With distinct broadcast identities: each is in exactly one of queued / finished,
   and finished at most once (NoDup of the concatenation). *)
Theorem C10_exactly_once : forall ops, Forall wf_op ops -> NoDup (all_queued ops) ->
  exists s xs, run true q0 ops = Some (s, xs) /\
    NoDup (map uid (items s) ++ all_fin xs) /\
    forall u, In u (all_queued ops) <->
              (In u (map uid (items s)) /\ ~ In u (all_fin xs)) \/ (In u (all_fin xs) /\ ~ In u (map uid (items s))).
Proof. exact exactly_once. Qed.
Print Assumptions C10_exactly_once.

(* Representation invariant of every reachable state: the tree is strictly sorted by
   (transmits up, length down, id down), ids are unique and bounded by the generator. *)
Theorem C10_sorted_unique : forall ops, Forall wf_op ops ->
  exists s xs, run true q0 ops = Some (s, xs) /\ Inv s.
Proof. exact reachable_inv. Qed.
Print Assumptions C10_sorted_unique.

(* GetBroadcasts = the one-pass greedy selection over the queue order, and exactly the
   returned items whose transmit count reaches the limit are completed. *)
Theorem C10_get_is_greedy : forall s ov lim tl, Inv s -> (0 <= ov)%Z ->
  exists s', step true s (Get ov lim tl) =
    Some (s', mkOut (map uid (greedy ov lim 0 (items s)))
                    (map uid (filter (due tl) (greedy ov lim 0 (items s))))
                    (qlen s') false) /\ Inv s'.
Proof. exact get_step_spec. Qed.
Print Assumptions C10_get_is_greedy.

(* The selection fits the byte limit (sizes plus per-message overhead). *)
Theorem C10_get_fits : forall ov lim l used, (0 <= ov)%Z ->
  greedy ov lim used l = [] \/ (used + total ov (greedy ov lim used l) <= lim)%Z.
Proof. exact greedy_bound. Qed.
Print Assumptions C10_get_fits.

(* Completion at submission time happens only for the superseded broadcast(s). *)
Theorem C10_queue_finish_reasons : forall u l k s,
  snd (do_queue true u l k s) =
  map uid (match k with
           | Named 0%N => []
           | Named n => match find (is_named n) (items s) with Some o => [o] | None => [] end
           | Unique => []
           | Plain g => filter (is_plain_grp g) (items s)
           end).
Proof. exact do_queue_fin. Qed.
Print Assumptions C10_queue_finish_reasons.

(* One step: invariant kept, no panic, NumQueued is the queue length, accounting. *)
Theorem C10_step : forall s o, Inv s -> wf_op o ->
  exists s' x, step true s o = Some (s', x) /\ Inv s' /\ pan x = false
    /\ nq x = N.of_nat (length (items s'))
    /\ Permutation (map uid (items s) ++ queued_of o) (map uid (items s') ++ fin x).
Proof. exact step_spec. Qed.
Print Assumptions C10_step.

(* The property is FALSE of the pinned (unrepaired) behaviour: witnesses. *)
Theorem C10_silent_loss_refuted :
  exists s xs, run false q0 [Queue 1 4 Unique; Get 0 100 8; Queue 2 4 Unique; Get 0 4 8] = Some (s, xs)
    /\ map uid (items s) = [2%N] /\ all_fin xs = [].
Proof. exact silent_loss_refuted. Qed.
Print Assumptions C10_silent_loss_refuted.

Theorem C10_prune_panic_refuted :
  exists s xs, run false q0 [Prune 0] = Some (s, xs) /\ map pan xs = [true].
Proof. exact prune_panic_refuted. Qed.
Print Assumptions C10_prune_panic_refuted.
