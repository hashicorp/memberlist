(* Stream_proofs.v — stream-path halves of C09, C12, C13, C14, C15. *)
From VF Require Import Base Label Label_proofs Wire Wire_proofs Stream.
Local Open Scope N_scope.

Lemma be32_length x : length (be32 x) = 4%nat. Proof. reflexivity. Qed.

(* a length within the push/pull cap fits the four length bytes *)
Lemma capped_fits_be32 len : len <= max_push_state_bytes -> len < 4294967296.
Proof. intro H. eapply N.le_lt_trans; [exact H | reflexivity]. Qed.

(* The reader alone: nothing is assumed of the AEAD or the decompressor. *)
Section Reader.
Variable open : N -> bytes -> bytes -> bytes -> option bytes.
Variable decomp : bytes -> option bytes.
Notation read_stream := (read_stream open decomp).
Notation decrypt_payload := (decrypt_payload open).

(* what readStream does with a message once any encryption is off: one level of compression *)
Definition unwrap (t : N) (r : bytes) : sres :=
  if N.eqb t t_compress then
    match decomp r with
    | Some [] => SErr 33
    | Some (t' :: r') => SOk t' r'
    | None => SErr 32
    end
  else SOk t r.

Lemma unwrap_no_panic t r : unwrap t r <> SPanic.
Proof. unfold unwrap. destruct (N.eqb t t_compress); [destruct (decomp r) as [[|t' r']|]|]; discriminate. Qed.

Lemma read_encrypted c label l1 l2 l3 l4 rest : enc_on c = true ->
  read_stream c label (t_encrypt :: l1 :: l2 :: l3 :: l4 :: rest) =
  let more := rd32 l1 l2 l3 l4 in
  if max_push_state_bytes <? more then SErr 31
  else if (length rest <? N.to_nat more)%nat then SNeedMore
  else match decrypt_payload c (firstn (N.to_nat more) rest) (t_encrypt :: l1 :: l2 :: l3 :: l4 :: label) with
       | Ok [] => if fixed c then SErr 34 else SPanic
       | Ok (t' :: r) => unwrap t' r
       | Err e => SErr e
       | Panic => SPanic
       end.
Proof. intro He. unfold Stream.read_stream. rewrite N.eqb_refl, He. reflexivity. Qed.

(* C13: a declared encrypted length beyond the cap is refused after the 5 header bytes, whatever follows *)
Theorem stream_cap_before_read c label l1 l2 l3 l4 rest :
  enc_on c = true -> max_push_state_bytes < rd32 l1 l2 l3 l4 ->
  read_stream c label (t_encrypt :: l1 :: l2 :: l3 :: l4 :: rest) = SErr 31.
Proof.
  intros He Hc. rewrite read_encrypted by exact He. cbv zeta. rewrite (proj2 (N.ltb_lt _ _) Hc). reflexivity.
Qed.

(* a frame whose length field is honest and within the cap, cut at any byte, only ever makes the
   reader wait for more: inside the header by the shape of the input, after it by the length test *)
Lemma read_cut_frame c label len ep n :
  enc_on c = true -> len <= max_push_state_bytes -> length ep = N.to_nat len ->
  (n < length (t_encrypt :: be32 len ++ ep))%nat ->
  read_stream c label (firstn n (t_encrypt :: be32 len ++ ep)) = SNeedMore.
Proof.
  intros He Hmax Hl. destruct (be32_spec len (capped_fits_be32 len Hmax)) as (a & b & c' & d & -> & R).
  cbn [app length]. intro Hlt.
  destruct n as [|[|[|[|[|n]]]]]; cbn [firstn]; try (unfold Stream.read_stream; rewrite ?N.eqb_refl, ?He; reflexivity).
  rewrite read_encrypted by exact He. cbv zeta. rewrite R, firstn_length.
  destruct (N.ltb_spec max_push_state_bytes len); [lia|].
  destruct (Nat.ltb_spec (Nat.min n (length ep)) (N.to_nat len)); [reflexivity | lia].
Qed.

(* C13: the repaired stream reader never panics, on any bytes *)
Theorem read_stream_no_panic c label b : fixed c = true -> read_stream c label b <> SPanic.
Proof.
  intro Hf. unfold Stream.read_stream. destruct b as [|t rest]; [discriminate|].
  destruct (N.eqb t t_encrypt); [|destruct (enc_on c && verify_in c); [discriminate | apply unwrap_no_panic]].
  destruct (negb (enc_on c)); [discriminate|]. destruct rest as [|l1 [|l2 [|l3 [|l4 rest]]]]; try discriminate.
  destruct (_ <? _); [discriminate|]. destruct (_ <? _)%nat; [discriminate|].
  pose proof (decrypt_no_panic open c (firstn (N.to_nat (rd32 l1 l2 l3 l4)) rest) (t :: l1 :: l2 :: l3 :: l4 :: label) Hf) as NP.
  destruct (decrypt_payload c _ _) as [[|t' r]|e|]; [rewrite Hf; discriminate | apply unwrap_no_panic | discriminate | contradiction].
Qed.

(* C14: with a keyring and incoming verification on, a stream is only ever read through a successful
   authenticated decryption whose associated data is  encryptMsg || length || the node's label *)
Theorem stream_authenticated c label b t body :
  enc_on c = true -> verify_in c = true -> read_stream c label b = SOk t body ->
  exists l1 l2 l3 l4 rest plain, b = t_encrypt :: l1 :: l2 :: l3 :: l4 :: rest /\
    decrypt_payload c (firstn (N.to_nat (rd32 l1 l2 l3 l4)) rest) (t_encrypt :: l1 :: l2 :: l3 :: l4 :: label) = Ok plain.
Proof.
  intros He Hv. unfold Stream.read_stream. rewrite He, Hv. destruct b as [|t0 rest]; [discriminate|].
  destruct (N.eqb_spec t0 t_encrypt) as [->|_]; [|discriminate].
  destruct rest as [|l1 [|l2 [|l3 [|l4 rest]]]]; try discriminate.
  destruct (_ <? _); [discriminate|]. destruct (_ <? _)%nat; [discriminate|].
  destruct (decrypt_payload c _ _) as [plain|e|] eqn:D; [|discriminate..]. repeat eexists. exact D.
Qed.

End Reader.

Section RoundTrip.
Variable seal : N -> bytes -> bytes -> bytes -> bytes.
Variable open : N -> bytes -> bytes -> bytes -> option bytes.
Variable comp : bytes -> bytes.
Variable decomp : bytes -> option bytes.
Hypothesis open_seal : forall k n p ad, open k n (seal k n p ad) ad = Some p.
Hypothesis open_other_key : forall k k' n p ad, k <> k' -> open k' n (seal k n p ad) ad = None.
Hypothesis seal_length : forall k n p ad, length (seal k n p ad) = (length p + 16)%nat.
Hypothesis comp_ok : forall m, exists body, comp m = t_compress :: body /\ decomp body = Some m.

(* the encrypted part of a frame is as long as the length field says *)
Lemma frame_length vsn k nonce m aad : length nonce = 12%nat -> (vsn = 0 \/ vsn = 1) ->
  length (encrypt_payload seal vsn k nonce m aad) = N.to_nat (encrypted_length vsn (blen m)).
Proof using seal_length.
  intros Hn Hv. rewrite <- (encrypt_payload_length seal seal_length vsn k nonce m aad Hn Hv). symmetry. apply to_nat_blen.
Qed.

(* the payload as sent, compressed or not, is a message the reader unwraps to (t, body) *)
Lemma sent_payload_unwraps (on : bool) t body : t <> t_compress -> t <> t_encrypt ->
  exists tt r, (if on then comp (t :: body) else t :: body) = tt :: r
    /\ tt <> t_encrypt /\ unwrap decomp tt r = SOk t body.
Proof using comp_ok.
  intros Hc He. unfold unwrap. destruct on.
  - destruct (comp_ok (t :: body)) as (r & -> & D). exists t_compress, r. rewrite N.eqb_refl, D. repeat split. discriminate.
  - exists t, body. destruct (N.eqb_spec t t_compress); [contradiction | auto].
Qed.

(* C12 (stream): a peer with a compatible configuration gets the message type and body back *)
Theorem stream_roundtrip cs cr label t body nonce :
  length nonce = 12%nat -> (encvsn cs = 0 \/ encvsn cs = 1) ->
  t <> t_compress -> t <> t_encrypt ->
  encrypted_length (encvsn cs) (blen (if compress_on cs then comp (t :: body) else t :: body)) <= max_push_state_bytes ->
  ((enc_on cs && verify_out cs = true /\ In (primary cs) (keys cr)) \/ (enc_on cs && verify_out cs = false /\ enc_on cr = false)) ->
  read_stream open decomp cr label (stream_frame seal comp cs label (t :: body) nonce) = SOk t body.
Proof using open_seal open_other_key seal_length comp_ok.
  intros Hn Hv Hc He Hmax Hk. unfold stream_frame.
  destruct (sent_payload_unwraps (compress_on cs) t body Hc He) as (tt & r & Es1 & Hne & Hu).
  set (s1 := if compress_on cs then _ else _) in *. set (len := encrypted_length (encvsn cs) (blen s1)) in *.
  destruct Hk as [[-> Hin]|[-> Hcr]].
  - pose proof (enc_on_of_key cr _ Hin) as Hcr.
    destruct (be32_spec len (capped_fits_be32 len Hmax)) as (a & b & c & d & -> & R). cbn [app].
    pose proof (frame_length (encvsn cs) (primary cs) nonce s1 (t_encrypt :: a :: b :: c :: d :: label) Hn Hv) as Hl.
    rewrite read_encrypted by exact Hcr. cbv zeta. rewrite R. fold len in Hl. rewrite <- Hl, Nat.ltb_irrefl, firstn_all.
    destruct (N.ltb_spec max_push_state_bytes len); [lia|].
    rewrite decrypt_encrypt, Es1 by assumption. exact Hu.
  - rewrite Es1. unfold read_stream. rewrite (proj2 (N.eqb_neq _ _) Hne), Hcr. exact Hu.
Qed.

(* C09 (encrypted streams): a stream cut at ANY byte is never mistaken for a message *)
Theorem cut_encrypted_is_error cs cr label payload nonce n :
  length nonce = 12%nat -> (encvsn cs = 0 \/ encvsn cs = 1) ->
  enc_on cs && verify_out cs = true -> enc_on cr = true ->
  encrypted_length (encvsn cs) (blen (if compress_on cs then comp payload else payload)) <= max_push_state_bytes ->
  (n < length (stream_frame seal comp cs label payload nonce))%nat ->
  read_stream open decomp cr label (firstn n (stream_frame seal comp cs label payload nonce)) = SNeedMore.
Proof using seal_length.
  intros Hn Hv Hen Hcr Hmax. unfold stream_frame. rewrite Hen. cbn [app].
  apply read_cut_frame; [exact Hcr | exact Hmax | apply frame_length; assumption].
Qed.

End RoundTrip.

Section Sealed.
Variable seal : N -> bytes -> bytes -> bytes -> bytes.
Variable comp : bytes -> bytes.

(* C15: with encryption enforced the stream writer emits  encryptMsg || length || version || nonce ||
   sealing under the primary key, with  encryptMsg || length || label  as associated data *)
Theorem stream_sealed c label payload nonce :
  enc_on c = true -> verify_out c = true ->
  exists s1, stream_frame seal comp c label payload nonce =
    let hdr := t_encrypt :: be32 (encrypted_length (encvsn c) (blen s1)) in
    hdr ++ encvsn c :: nonce ++ seal (primary c) nonce (if N.eqb (encvsn c) 0 then pkcs7_pad s1 else s1) (hdr ++ label).
Proof.
  intros He Hv. unfold stream_frame. rewrite He, Hv. eexists. reflexivity.
Qed.

End Sealed.

(* the pinned reader indexed the decrypted plaintext without checking that it is not empty *)
Example empty_plain_panic_refuted :
  let open := fun (_ : N) (_ _ _ : bytes) => Some (@nil N) in
  read_stream open (fun _ => None) (mkP [] false [1] true true 1 false false) []
              (t_encrypt :: 0 :: 0 :: 0 :: 29 :: 1 :: repeat 0 28) = SPanic.
Proof. vm_compute. reflexivity. Qed.
