(* Heal_cluster.v — a push/pull exchange is a schedule of the cluster model (two snapshots, then the
   deliveries of their entries in order), so everything proved about every schedule of the cluster
   (C05_claims_below_owner, ...) holds across exchanges, and the pairwise healing theorem applies inside any
   reachable cluster state. *)
From VF Require Import Base Core Core_lemmas Core_inv Cluster Cluster_proofs Below_cluster Exchange Heal_proofs.
Local Open Scope Z_scope.

Lemma wrun_app l1 : forall l2 w, fst (wrun w (l1 ++ l2)) = fst (wrun (fst (wrun w l1)) l2).
Proof. induction l1 as [|a l1 IH]; intros l2 w; [reflexivity|]. cbn [app]. rewrite !wrun_cons. apply IH. Qed.

Lemma deliver_one w i k e c s : nth_error (wpool w) k = Some e -> nth_error (wnodes w) i = Some (c, s) ->
  fst (wstep w (WDeliver i k)) = put w i c (fst (step c s (op_of e))).
Proof. intros E Hn. cbn [wstep]. rewrite E, (at_node_put w i _ c s Hn). reflexivity. Qed.

(* delivering a stretch of the pool, in order, to node i = node i merges those entries *)
Lemma deliver_stretch entries : forall pre post w i c s,
  wpool w = pre ++ entries ++ post -> nth_error (wnodes w) i = Some (c, s) ->
  let w' := fst (wrun w (deliver_all i (length pre) (length entries))) in
  nth_error (wnodes w') i = Some (c, merge_all c s entries) /\
  (forall k, k <> i -> nth_error (wnodes w') k = nth_error (wnodes w) k) /\ wpool w' = wpool w.
Proof.
  induction entries as [|e es IH]; intros pre post w i c s Hp Hn; [cbn; auto|].
  unfold deliver_all. cbn [length seq map]. rewrite wrun_cons, (deliver_one w i _ e c s), merge_all_cons;
    [|rewrite Hp, nth_error_app2, Nat.sub_diag by apply Nat.le_refl; reflexivity | exact Hn].
  set (s1 := fst (step c s (op_of e))). pose proof (put_nth w i c s s1 Hn) as Nth. set (w1 := put w i c s1) in *.
  specialize (IH (pre ++ [e]) post w1 i c s1). rewrite app_length, Nat.add_1_r in IH.
  destruct IH as [R1 [R2 R3]].
  - cbn [w1 put wpool]. rewrite Hp, <- app_assoc. reflexivity.
  - rewrite Nth, Nat.eqb_refl. reflexivity.
  - spl; auto. intros k Hk. rewrite R2, Nth by exact Hk. apply Nat.eqb_neq in Hk. rewrite Hk. reflexivity.
Qed.

(* one exchange between the nodes at positions i <> j *)
Theorem exchange_is_a_schedule w i j ci si cj sj :
  i <> j -> nth_error (wnodes w) i = Some (ci, si) -> nth_error (wnodes w) j = Some (cj, sj) ->
  let w' := fst (wrun w (exchange_sched w i j)) in
  nth_error (wnodes w') i = Some (ci, fst (pushpull ci si cj sj)) /\
  nth_error (wnodes w') j = Some (cj, snd (pushpull ci si cj sj)) /\
  (forall k, k <> i -> k <> j -> nth_error (wnodes w') k = nth_error (wnodes w) k) /\
  wpool w' = snapshot sj ++ snapshot si ++ wpool w.
Proof.
  intros Hij Hi Hj. cbv zeta. unfold exchange_sched. rewrite Hi, Hj, !wrun_app.
  assert (E0 : fst (wrun w [WSnapshot i; WSnapshot j]) = mkW (wnodes w) (snapshot sj ++ snapshot si ++ wpool w)).
  { cbn [wrun wstep]. rewrite Hi. cbn [wnodes]. rewrite Hj. reflexivity. }
  rewrite E0, <- (map_length _ (recs sj) : length (snapshot sj) = _), <- (map_length _ (recs si) : length (snapshot si) = _).
  set (w0 := mkW _ _).
  destruct (deliver_stretch (snapshot sj) [] (snapshot si ++ wpool w) w0 i ci si eq_refl Hi) as [A1 [A2 A3]].
  set (w1 := fst (wrun w0 _)) in *.
  destruct (deliver_stretch (snapshot si) (snapshot sj) (wpool w) w1 j cj sj) as [B1 [B2 B3]];
    [exact A3 | rewrite A2 by apply not_eq_sym, Hij; exact Hj |].
  spl.
  - rewrite B2 by exact Hij. exact A1.
  - exact B1.
  - intros k Hki Hkj. rewrite B2, A2 by assumption. reflexivity.
  - rewrite B3. exact A3.
Qed.

(* a schedule of the healthy-cluster actions is a schedule of the general cluster *)
Lemma grun_GA l : forall w, grun w (map GA l) = wrun w l.
Proof.
  induction l as [|a l IH]; intros w; cbn [map grun wrun]; [reflexivity|]. cbn [gstep].
  destruct (wstep w a) as [w1 e1]. rewrite IH. reflexivity.
Qed.

(* two exchanges in a row, inside the cluster *)
Definition exchange2_sched (w : world) (i j : nat) : list wact :=
  exchange_sched w i j ++ exchange_sched (fst (wrun w (exchange_sched w i j))) i j.

Lemma exchange2_is_a_schedule w i j ci si cj sj :
  i <> j -> nth_error (wnodes w) i = Some (ci, si) -> nth_error (wnodes w) j = Some (cj, sj) ->
  let w' := fst (wrun w (exchange2_sched w i j)) in
  nth_error (wnodes w') i = Some (ci, fst (pushpull2 ci si cj sj)) /\
  nth_error (wnodes w') j = Some (cj, snd (pushpull2 ci si cj sj)).
Proof.
  intros Hij Hi Hj. cbv zeta. unfold exchange2_sched, pushpull2. rewrite wrun_app.
  destruct (exchange_is_a_schedule w i j ci si cj sj Hij Hi Hj) as [A1 [A2 _]].
  destruct (exchange_is_a_schedule _ i j ci _ cj _ Hij A1 A2) as [B1 [B2 _]].
  destruct (pushpull ci si cj sj). auto.
Qed.

(* the pairwise theorem inside a cluster state: after the two-exchange schedule the two nodes list each other
   alive with current metadata *)
Theorem heal_in_cluster w i j ci si cj sj ri rj :
  i <> j -> nth_error (wnodes w) i = Some (ci, si) -> nth_error (wnodes w) j = Some (cj, sj) ->
  self ci <> self cj -> heal_self ci si ri -> heal_self cj sj rj -> heal_prior cj sj ci ri -> heal_prior ci si cj rj ->
  let w' := fst (wrun w (exchange2_sched w i j)) in
  exists si' sj', nth_error (wnodes w') i = Some (ci, si') /\ nth_error (wnodes w') j = Some (cj, sj') /\
    listed sj' (self ci) = Some (raddr ri, rmeta ri) /\ listed si' (self cj) = Some (raddr rj, rmeta rj) /\
    listed si' (self ci) = Some (raddr ri, rmeta ri) /\ listed sj' (self cj) = Some (raddr rj, rmeta rj).
Proof.
  intros Hij Hi Hj Hn Si Sj Pj Pi. cbv zeta.
  destruct (exchange2_is_a_schedule w i j ci si cj sj Hij Hi Hj) as [E1 E2].
  pose proof (two_pushpulls_heal_mutual ci si cj sj ri rj Hn Si Sj Pj Pi) as H.
  destruct (pushpull2 ci si cj sj) as [si' sj']. exists si', sj'. auto.
Qed.

(* the same in any state the cluster can reach (BW is the invariant of C05_claims_below_owner: every state
   reached from booted nodes with distinct names under every schedule satisfies it) *)
Theorem heal_in_reachable w i j ci si cj sj :
  BW w -> i <> j -> nth_error (wnodes w) i = Some (ci, si) -> nth_error (wnodes w) j = Some (cj, sj) ->
  leaving si = false -> leaving sj = false ->
  forall ri rj, lk si (self ci) = Some ri -> lk sj (self cj) = Some rj ->
  (0 < rinc ri)%N -> (0 < rinc rj)%N -> vsn_bad (rvsn ri) = false -> vsn_bad (rvsn rj) = false ->
  below_max (linc si) -> below_max (linc sj) ->
  heal_prior cj sj ci ri -> heal_prior ci si cj rj ->
  let w' := fst (wrun w (exchange2_sched w i j)) in
  exists si' sj', nth_error (wnodes w') i = Some (ci, si') /\ nth_error (wnodes w') j = Some (cj, sj') /\
    listed sj' (self ci) = Some (raddr ri, rmeta ri) /\ listed si' (self cj) = Some (raddr rj, rmeta rj) /\
    listed si' (self ci) = Some (raddr ri, rmeta ri) /\ listed sj' (self cj) = Some (raddr rj, rmeta rj).
Proof.
  intros [Hn _ Hnames] Hij Hi Hj Li Lj ri rj Lri Lrj Pi Pj Vi Vj Bi Bj.
  destruct (Hn ci si (nth_error_In _ _ Hi)) as [_ [[Ii Ki] _]].
  destruct (Hn cj sj (nth_error_In _ _ Hj)) as [_ [[Ij Kj] _]].
  apply heal_in_cluster; auto.
  - intro E. apply Hij, (name_index w i j ci si cj sj Hnames Hi Hj E).
  - exact (conj Ki (conj (Inv_SelfGood ci si ri Ii Li Lri) (conj Pi (conj Vi Bi)))).
  - exact (conj Kj (conj (Inv_SelfGood cj sj rj Ij Lj Lrj) (conj Pj (conj Vj Bj)))).
Qed.
