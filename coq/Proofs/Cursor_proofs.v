(* Cursor_proofs.v — the probe schedule: what a tick selects, coverage of every pass, exactness of
   a stable pass, and the number of ticks after which a given live peer has certainly been probed.
   Everything is derived from one relation, [scan], that describes a run of the loop of probe() over
   the list, and one lemma, [tick_scan], that says a tick is one scan or, across resetNodes, two. *)
From VF Require Import Base Cursor.

Definition skipped (el : N -> bool) (l : list N) (i j : nat) : Prop :=
  forall q, i <= q < j -> el (nth q l 0%N) = false.

Lemma skipped_refl el l i : skipped el l i i.
Proof. intros q Hq. lia. Qed.

Lemma skipped_cons el l i j : el (nth i l 0%N) = false -> skipped el l (S i) j -> skipped el l i j.
Proof.
  intros Hi Hs q Hq. destruct (Nat.eq_dec q i) as [->|Hne]; [exact Hi|]. apply Hs. lia.
Qed.

Lemma firstn_S_nth (l : list N) : forall j, j < length l -> firstn (S j) l = firstn j l ++ [nth j l 0%N].
Proof.
  induction l as [|x l IHl]; intros j Hj; cbn [length] in Hj; [lia|].
  destruct j as [|j]; [reflexivity|].
  change (x :: firstn (S j) l = x :: (firstn j l ++ [nth j l 0%N])).
  rewrite IHl; [reflexivity|lia].
Qed.

(* [scan el s s' sel]: from the cursor s the loop passes over entries that may not be probed and
   leaves the cursor at s', having handed out the entry before it or having given up *)
Inductive scan (el : N -> bool) : cst -> cst -> option N -> Prop :=
| scan_none l i : i <= length l -> scan el (mkC l i) (mkC l i) None
| scan_some l i : i < length l -> el (nth i l 0%N) = true ->
                  scan el (mkC l i) (mkC l (S i)) (Some (nth i l 0%N))
| scan_skip l i s' sel : i < length l -> el (nth i l 0%N) = false ->
                         scan el (mkC l (S i)) s' sel -> scan el (mkC l i) s' sel.

Lemma scan_bounds {el s s' sel} : scan el s s' sel ->
  order s' = order s /\ idx s <= idx s' <= length (order s') /\ (sel = None \/ idx s < idx s').
Proof.
  induction 1 as [l i Hi|l i Hi _|l i s' sel Hi _ _ [Ho IH]]; cbn [order idx] in *;
    [auto|split; [reflexivity|lia]|split; [exact Ho|lia]].
Qed.

Lemma scan_sel {el s s' sel} x : scan el s s' sel -> sel = Some x -> el x = true /\ In x (order s).
Proof. induction 1; [discriminate|intros [= <-]; auto using nth_In|assumption]. Qed.

(* [ahead s p x]: x is the entry at index p, and the cursor has not passed it *)
Definition ahead (s : cst) (p : nat) (x : N) : Prop :=
  idx s <= p < length (order s) /\ nth p (order s) 0%N = x.

Lemma scan_ahead {el s s' sel p x} :
  scan el s s' sel -> ahead s p x -> el x = true -> sel = Some x \/ ahead s' p x.
Proof.
  unfold ahead. induction 1 as [l i _|l i _ _|l i s' sel _ Hi _ IH]; cbn [order idx] in *; intros [Hp <-] Hel.
  - right. auto.
  - destruct (Nat.eq_dec p i) as [->|]; [left; reflexivity|right; split; [lia|reflexivity]].
  - apply IH; [|exact Hel]. split; [|reflexivity].
    destruct (Nat.eq_dec p i) as [->|]; [congruence|lia].
Qed.

Lemma scan_filter {el s s' sel} : scan el s s' sel ->
  filter el (firstn (idx s') (order s')) = filter el (firstn (idx s) (order s)) ++ ocons sel [].
Proof.
  induction 1 as [l i _|l i Hi Hel|l i s' sel Hi Hel _ IH]; cbn [order idx ocons] in *.
  - symmetry. apply app_nil_r.
  - rewrite firstn_S_nth, filter_app by exact Hi. cbn [filter]. rewrite Hel. reflexivity.
  - rewrite IH, firstn_S_nth, filter_app by exact Hi. cbn [filter]. rewrite Hel, app_nil_r. reflexivity.
Qed.

(* the form in which [tick_spec] describes a scan *)
Lemma scan_skipped {el s s' sel} : scan el s s' sel ->
  exists j, idx s <= j /\ skipped el (order s) (idx s) j /\
    ((j < length (order s) /\ el (nth j (order s) 0%N) = true /\ sel = Some (nth j (order s) 0%N) /\
      idx s' = S j)
     \/ (sel = None /\ idx s' = j /\ j <= length (order s))).
Proof.
  induction 1 as [l i Hi|l i Hi Hel|l i s' sel _ Hel _ [j [Hj [Hs Hd]]]]; cbn [order idx] in *.
  - exists i. split; [apply le_n|]. split; [apply skipped_refl|]. right. auto.
  - exists i. split; [apply le_n|]. split; [apply skipped_refl|]. left. auto.
  - exists j. split; [lia|]. split; [apply skipped_cons; assumption|]. exact Hd.
Qed.

Lemma scan_none_skipped {el s s'} : scan el s s' None -> skipped el (order s) (idx s) (idx s').
Proof.
  intro H. destruct (scan_skipped H) as [j [_ [Hs Hd]]].
  destruct Hd as [[_ [_ [[=] _]]] | [_ [-> _]]]. exact Hs.
Qed.

(* Either the loop stays on the list it started with, and if it gives up there then fuel or numCheck
   has run out; or it reaches the end of that list, resetNodes runs, and it scans the new list from
   the start.  That happens only before a wrap: afterwards numCheck is ahead of the cursor and runs
   out first. *)
Lemma loop_spec el rs : forall f c l i w0 s' sel w,
  loop f el rs c (mkC l i) w0 = (s', sel, w) -> i <= length l -> (w0 = true -> i <= c) ->
  (w = w0 /\ scan el (mkC l i) s' sel /\
     (sel = None -> f <= idx s' - i \/ length l <= c + (idx s' - i)))
  \/ (w0 = false /\ w = true /\ scan el (mkC l i) (mkC l (length l)) None /\ scan el (mkC rs 0) s' sel).
Proof.
  induction f as [|f IH]; intros c l i w0 s' sel w E Hil Hw; cbn [loop order idx] in E;
    [|destruct (Nat.leb_spec (length l) c) as [Hc|Hc]].
  (* out of fuel, or numCheck has reached the length of the list: the loop gives up where it is *)
  1, 2: injection E as <- <- <-; left; repeat split; [apply scan_none, Hil|cbn [idx]; lia].
  destruct (Nat.leb_spec (length l) i) as [Hi|Hi].
  - assert (i = length l) by lia. subst i.
    destruct w0; [specialize (Hw eq_refl); lia|].
    apply IH in E as [[-> [Hsc _]] | [[=] _]]; [|auto with arith..].
    right. auto using scan_none.
  - destruct (el (nth i l 0%N)) eqn:Hel.
    { injection E as <- <- <-. left. split; [reflexivity|]. split; [apply scan_some; assumption|discriminate]. }
    apply IH in E as [[-> [Hsc Hn]] | [-> [-> [Hend R]]]]; [| |lia|intros H; specialize (Hw H); lia].
    + left. split; [reflexivity|]. split; [apply scan_skip; assumption|].
      intros Hs. apply scan_bounds in Hsc. cbn [idx] in Hsc. specialize (Hn Hs). lia.
    + right. split; [reflexivity|]. split; [reflexivity|]. split; [apply scan_skip; assumption|exact R].
Qed.

(* A tick is one scan, or a scan to the end of the list and a scan of the new list from the start.
   A tick that neither selects nor wraps has looked at the whole list from the start. *)
Lemma tick_scan el rs s s' sel w :
  tick el rs s = (s', sel, w) -> idx s <= length (order s) ->
  (w = false /\ scan el s s' sel /\ (sel = None -> idx s' = length (order s) /\ idx s = 0))
  \/ (w = true /\ scan el s (mkC (order s) (length (order s))) None /\ scan el (mkC rs 0) s' sel).
Proof.
  destruct s as [l i]. unfold tick. cbn [order idx]. intros E Hil.
  apply loop_spec in E as [[-> [Hsc Hn]] | [_ R]]; [left|right; exact R|exact Hil|discriminate].
  split; [reflexivity|]. split; [exact Hsc|].
  intros Hs. apply scan_bounds in Hsc as [Ho Hb]. rewrite Ho in Hb. cbn [order idx] in Hb.
  specialize (Hn Hs). lia.
Qed.

Theorem tick_spec el rs l i s' sel w :
  tick el rs (mkC l i) = (s', sel, w) -> i <= length l ->
  (w = false /\ order s' = l /\ exists j, i <= j /\ skipped el l i j /\
     ((j < length l /\ el (nth j l 0%N) = true /\ sel = Some (nth j l 0%N) /\ idx s' = S j)
      \/ (sel = None /\ idx s' = j /\ j = length l /\ i = 0)))
  \/
  (w = true /\ skipped el l i (length l) /\ order s' = rs /\ exists j, skipped el rs 0 j /\
     ((j < length rs /\ el (nth j rs 0%N) = true /\ sel = Some (nth j rs 0%N) /\ idx s' = S j)
      \/ (sel = None /\ idx s' = j /\ j <= length rs))).
Proof.
  intros E Hil. apply tick_scan in E; [|exact Hil]. cbn [order idx] in E.
  destruct E as [[-> [Hsc Hn]] | [-> [Hend Hsc]]]; destruct (scan_bounds Hsc) as [Ho _];
    destruct (scan_skipped Hsc) as [j [Hj [Hsk Hd]]]; [left|right]; (split; [reflexivity|]).
  - split; [exact Ho|]. exists j. split; [exact Hj|]. split; [exact Hsk|].
    destruct Hd as [Hd|[Hs [Hi _]]]; [left; exact Hd|right].
    destruct (Hn Hs). repeat split; congruence.
  - split; [exact (scan_none_skipped Hend)|]. split; [exact Ho|]. exists j. split; [exact Hsk|exact Hd].
Qed.

Lemma tick_wf {el rs s s' sel w} :
  tick el rs s = (s', sel, w) -> idx s <= length (order s) -> idx s' <= length (order s').
Proof.
  intros E H. apply tick_scan in E as [[_ [Hsc _]] | [_ [_ Hsc]]]; [| |exact H];
    apply scan_bounds in Hsc; lia.
Qed.

(* C03: the node handed to probeNode is never this node and never a Dead/Left one *)
Theorem tick_selects_eligible el rs s s' x w :
  tick el rs s = (s', Some x, w) -> idx s <= length (order s) ->
  el x = true /\ (In x (order s) \/ In x rs).
Proof.
  intros E H. apply tick_scan in E as [[_ [Hsc _]] | [_ [_ Hsc]]]; [| |exact H];
    destruct (scan_sel x Hsc eq_refl); auto.
Qed.

Lemma set_nth_length n y l : length (set_nth n y l) = length l.
Proof. revert n. induction l as [|x l IH]; intros [|n]; cbn; auto. Qed.

Lemma set_nth_other n y l p : p <> n -> nth p (set_nth n y l) 0%N = nth p l 0%N.
Proof.
  revert n p. induction l as [|x l IH]; intros [|n] [|p] H; cbn; auto; try lia.
Qed.

Lemma insert_idx y off s : idx (insert y off s) = idx s.
Proof. unfold insert. destruct (off <? _); reflexivity. Qed.

Lemma insert_length y off s : length (order (insert y off s)) = S (length (order s)).
Proof.
  unfold insert. destruct (off <? _); cbn [order]; rewrite app_length, ?set_nth_length; cbn; lia.
Qed.

(* the entry swapped out goes to the end of the list, every other entry keeps its index *)
Lemma insert_keeps_ahead y off s p x : ahead s p x -> exists p', ahead (insert y off s) p' x.
Proof.
  intros [Hp <-]. unfold ahead. rewrite insert_idx, insert_length. unfold insert.
  destruct (Nat.ltb_spec off (length (order s))) as [Hoff|Hoff]; cbn [order].
  - destruct (Nat.eq_dec p off) as [->|Hne].
    + exists (length (order s)). split; [lia|].
      rewrite app_nth2; rewrite set_nth_length; [|lia]. rewrite Nat.sub_diag. reflexivity.
    + exists p. split; [lia|].
      rewrite app_nth1; [|rewrite set_nth_length; lia]. apply set_nth_other. exact Hne.
  - exists p. split; [lia|]. apply app_nth1. lia.
Qed.

(* [covers s sn cd]: every candidate in cd has been probed (is in sn) or is still ahead of the cursor *)
Definition covers (s : cst) (sn cd : list N) : Prop :=
  forall x, In x cd -> In x sn \/ exists p, ahead s p x.

Lemma covers_start l : covers (mkC l 0) [] l.
Proof.
  intros x Hx. right. destruct (In_nth _ _ 0%N Hx) as [p [H1 H2]].
  exists p. split; [cbn; lia|exact H2].
Qed.

Lemma covers_end {l sn cd} : covers (mkC l (length l)) sn cd -> incl cd sn.
Proof. intros H x Hx. destruct (H x Hx) as [Hsn|[p [Hp _]]]; [exact Hsn|cbn in Hp; lia]. Qed.

Lemma In_ocons x sel l : In x l -> In x (ocons sel l).
Proof. destruct sel; cbn; auto. Qed.

Lemma scan_covers {el s s' sel sn cd} :
  scan el s s' sel -> covers s sn cd -> covers s' (ocons sel sn) (filter el cd).
Proof.
  intros Hsc H x [Hx Hel]%filter_In. destruct (H x Hx) as [Hsn|[p Hp]]; [left; apply In_ocons; exact Hsn|].
  destruct (scan_ahead Hsc Hp Hel) as [->|]; [left; left; reflexivity|eauto].
Qed.

Definition GI (g : gst) : Prop :=
  idx (cs g) <= length (order (cs g)) /\ covers (cs g) (seen g) (cand g) /\
  forall c sn, In (c, sn) (passes g) -> incl c sn.

Lemma GI_step g a : GI g -> GI (gstep g a).
Proof.
  intros [Hwf [Hc Hp]]. destruct a as [el rs | y off]; cbn [gstep].
  - destruct (tick el rs (cs g)) as [[s' sel] w] eqn:E.
    pose proof (tick_wf E Hwf) as Hwf'.
    apply tick_scan in E as [[-> [Hsc _]] | [-> [Hend Hsc]]]; [| |exact Hwf];
      (split; [exact Hwf'|]); cbn [cs seen cand passes]; split.
    + exact (scan_covers Hsc Hc).
    + exact Hp.
    + exact (scan_covers Hsc (covers_start rs)).
    + (* the pass that ends: its candidates are covered with the cursor at the end of the list *)
      intros c sn [[= <- <-]|Hin]; [|exact (Hp c sn Hin)].
      exact (covers_end (scan_covers Hend Hc)).
  - split; cbn [cs seen cand passes]; [rewrite insert_idx, insert_length; lia|]. split; [|exact Hp].
    intros x Hx. destruct (Hc x Hx) as [Hsn | [p Hp1]]; [left; exact Hsn|].
    right. exact (insert_keeps_ahead y off _ p x Hp1).
Qed.

Lemma GI_run l : forall g, GI g -> GI (grun g l).
Proof. induction l as [|a l IH]; intros g H; [exact H|]. apply IH, GI_step, H. Qed.

(* a run that begins with a pass: the whole list is candidate ([ginit] starts anywhere, with no candidates) *)
Definition ginit0 (o : list N) : gst := mkG (mkC o 0) [] o [] [].

Lemma GI_init o : GI (ginit0 o).
Proof. split; [cbn; lia|]. split; [apply covers_start|intros c sn []]. Qed.

(* C03: in every completed pass (between two runs of resetNodes), whatever was inserted, whatever
   statuses changed and whatever the shuffles did, every name that was in the list when the pass
   began and could be probed at every tick of the pass was handed to probeNode during the pass *)
Theorem pass_visits_all o acts c sn :
  In (c, sn) (passes (grun (ginit0 o) acts)) -> incl c sn.
Proof. apply (GI_run acts _ (GI_init o)). Qed.

Lemma filter_idem (el : N -> bool) l : filter el (filter el l) = filter el l.
Proof.
  induction l as [|x l IH]; cbn; [reflexivity|]. destruct (el x) eqn:E; cbn; rewrite ?E, IH; reflexivity.
Qed.

Lemma rev_ocons sel (l : list N) : rev (ocons sel l) = rev l ++ ocons sel [].
Proof. destruct sel; cbn; [reflexivity|symmetry; apply app_nil_r]. Qed.

Section Stable.
Variable el : N -> bool.

Definition only_ticks (a : act) : Prop := exists rs, a = ATick el rs.

(* the names probed in the running pass are the probe-able entries behind the cursor, in list order *)
Definition SI (g : gst) : Prop :=
  idx (cs g) <= length (order (cs g)) /\
  filter el (cand g) = filter el (order (cs g)) /\
  rev (seen g) = filter el (firstn (idx (cs g)) (order (cs g))) /\
  forall c sn, In (c, sn) (passes g) -> rev sn = c.

Lemma SI_step g a : only_ticks a -> SI g -> SI (gstep g a).
Proof.
  intros [rs ->] [Hwf [Hc [Hs Hp]]]. cbn [gstep].
  destruct (tick el rs (cs g)) as [[s' sel] w] eqn:E.
  apply tick_scan in E as [[-> [Hsc _]] | [-> [Hend Hsc]]]; [| |exact Hwf];
    pose proof (scan_filter Hsc) as Hf; apply scan_bounds in Hsc as [Ho Hb];
    (split; cbn [cs seen cand passes]; [lia|]); rewrite filter_idem, rev_ocons, Hf, Ho.
  - rewrite Hs. auto.
  - split; [reflexivity|]. split; [reflexivity|].
    intros c sn [[= <- <-]|Hin]; [|exact (Hp c sn Hin)].
    apply scan_filter in Hend. cbn [order idx ocons] in Hend. rewrite firstn_all, app_nil_r in Hend. congruence.
Qed.

Lemma SI_run acts : Forall only_ticks acts -> forall g, SI g -> SI (grun g acts).
Proof. induction 1 as [|a l Ha _ IH]; intros g Hg; [exact Hg|]. apply IH, SI_step; assumption. Qed.

Lemma SI_init o : SI (ginit0 o).
Proof. split; [cbn; lia|]. split; [reflexivity|]. split; [reflexivity|intros c sn []]. Qed.

(* C03: while membership is stable (no insertion, no status change) every pass hands exactly the
   probe-able names to probeNode, once each, in list order *)
Theorem stable_pass_exact o acts c sn :
  Forall only_ticks acts -> In (c, sn) (passes (grun (ginit0 o) acts)) -> rev sn = c.
Proof. intros Hall. apply (SI_run acts Hall _ (SI_init o)). Qed.
End Stable.

Lemma find_from_spec v : forall l i,
  match find_from v l i with
  | Some p => i <= p < length l /\ nth p l 0%N = v /\ (forall q, i <= q < p -> nth q l 0%N <> v)
  | None => forall q, i <= q < length l -> nth q l 0%N <> v
  end.
Proof.
  induction l as [|x l IH]; intros i; cbn [find_from].
  - intros q Hq. cbn in Hq. lia.
  - destruct i as [|i].
    + destruct (N.eqb x v) eqn:E.
      * apply N.eqb_eq in E. cbn. split; [lia|]. split; [exact E|]. intros q Hq. lia.
      * apply N.eqb_neq in E. specialize (IH 0). destruct (find_from v l 0) as [p|]; cbn [option_map].
        -- destruct IH as [H1 [H2 H3]]. cbn [length nth]. split; [lia|]. split; [exact H2|].
           intros [|q] Hq; cbn; [exact E|]. apply H3. lia.
        -- intros [|q] Hq; cbn; [exact E|]. apply IH. cbn in Hq. lia.
    + specialize (IH i). destruct (find_from v l i) as [p|]; cbn [option_map].
      * destruct IH as [H1 [H2 H3]]. cbn [length nth]. split; [lia|]. split; [exact H2|].
        intros [|q] Hq; [lia|]. cbn. apply H3. lia.
      * intros [|q] Hq; [lia|]. cbn. apply IH. cbn in Hq. lia.
Qed.

Section Reach.
Variable v : N.
Variable n : nat.

Definition RI (s : cst) : Prop :=
  idx s <= length (order s) /\ length (order s) <= n /\ In v (order s).

(* [within s m]: m ticks certainly suffice to reach v.  Either v lies ahead of the cursor, fewer than
   m entries away; or m covers the rest of the list (one tick per entry at worst, and a tick that
   selects nothing ends a pass), the tick that wraps, and a whole new list *)
Definition within (s : cst) (m : nat) : Prop :=
  (exists p, ahead s p v /\ p - idx s < m) \/ length (order s) - idx s + n < m.

Lemma within_2n s : RI s -> within s (2 * n).
Proof.
  intros [Hwf [Hn Hin]]. destruct (In_nth _ _ 0%N Hin) as [p [Hp Hv]].
  destruct (le_lt_dec (idx s) p); [left|right; lia].
  exists p. split; [split; [lia|exact Hv]|lia].
Qed.

(* one tick either probes v or leaves one tick less to go *)
Lemma tick_progress {el rs s s' sel w m} :
  tick el rs s = (s', sel, w) -> RI s -> el v = true -> In v rs -> length rs <= n ->
  within s (S m) -> RI s' /\ (sel = Some v \/ within s' m).
Proof.
  intros E [Hwf [Hn Hin]] Hel Hrs Hrn Hm.
  apply tick_scan in E as [[-> [Hsc Hnone]] | [-> [Hend Hsc]]]; [| |exact Hwf];
    destruct (scan_bounds Hsc) as [Ho [Hb Hmv]];
    (split; [split; [lia|rewrite Ho; auto]|]).
  - (* without a wrap the cursor has moved on, since the list is not empty *)
    assert (idx s < idx s').
    { destruct Hmv as [Hs|]; [|assumption].
      destruct (Hnone Hs) as [-> ->]. destruct (order s); [destruct Hin|cbn; lia]. }
    destruct Hm as [[p [Hp Hd]] | Hd].
    + destruct (scan_ahead Hsc Hp Hel) as [->|Hp']; [left; reflexivity|].
      right. left. exists p. split; [exact Hp'|]. destruct Hp'. lia.
    + right. right. rewrite Ho in *. lia.
  - (* a wrap means v was not ahead, and in the new list v is at most n - 1 entries away *)
    destruct Hm as [[p [[Hp Hv] _]] | Hd].
    + destruct (scan_ahead Hend (conj Hp Hv) Hel) as [[=]|[Hq _]]. cbn in Hq. lia.
    + destruct (In_nth _ _ 0%N Hrs) as [q [Hq Hv]].
      destruct (scan_ahead (p := q) (x := v) Hsc) as [->|Hq']; [split; [cbn; lia|exact Hv]|exact Hel|left; reflexivity|].
      right. left. exists q. split; [exact Hq'|lia].
Qed.

(* a run of ticks only: the selections, in order *)
Fixpoint tick_run (s : cst) (ts : list ((N -> bool) * list N)) : list (option N) :=
  match ts with
  | [] => []
  | (el, rs) :: ts' => let '(s', sel, _) := tick el rs s in sel :: tick_run s' ts'
  end.

Definition tick_ok (t : (N -> bool) * list N) : Prop :=
  fst t v = true /\ In v (snd t) /\ length (snd t) <= n.

Lemma ticks_reach m : forall ts s, RI s -> Forall tick_ok ts -> within s m -> m <= length ts ->
  exists k, k < m /\ nth_error (tick_run s ts) k = Some (Some v).
Proof.
  induction m as [|m IH]; intros ts s HR Hall Hm Hlen.
  - destruct Hm as [[p [_ H]]|H]; lia.
  - destruct Hall as [|[el rs] ts [H1 [H2 H3]] Hall]; cbn [length] in Hlen; [lia|]. cbn [tick_run].
    destruct (tick el rs s) as [[s' sel] w] eqn:E.
    destruct (tick_progress E HR H1 H2 H3 Hm) as [HR' [->|Hm']].
    + exists 0. split; [lia|reflexivity].
    + destruct (IH ts s' HR' Hall Hm') as [k [Hk1 Hk2]]; [lia|]. exists (S k). split; [lia|exact Hk2].
Qed.

(* C03: at most two passes.  With at most n entries in the list, a peer that stays in the list and
   probe-able is handed to probeNode within the next 2n ticks, whatever the statuses of the others
   do and however the list is reaped and shuffled in between *)
Theorem ticks_until_selected ts s :
  RI s -> Forall tick_ok ts -> 2 * n <= length ts ->
  exists k, k < 2 * n /\ nth_error (tick_run s ts) k = Some (Some v).
Proof. intros HR Hall. exact (ticks_reach _ ts s HR Hall (within_2n s HR)). Qed.
End Reach.

Local Open Scope Z_scope.

(* two full passes at the slowest awareness-scaled pace plus the maximum suspicion timeout *)
Definition detect_bound (n : Z) (pi awmax smax : Z) : Z := pi + 2 * n * (awmax * pi) + smax.

(* start times of consecutive ticks are at most D apart *)
Fixpoint paced (D : Z) (prev : Z) (starts : list Z) : Prop :=
  match starts with
  | [] => True
  | t :: ts => t <= prev + D /\ paced D t ts
  end.

Lemma paced_nth D : forall starts prev k t, paced D prev starts -> 0 <= D ->
  nth_error starts k = Some t -> t <= prev + (Z.of_nat k + 1) * D.
Proof.
  induction starts as [|t0 ts IH]; intros prev k t Hp HD Hk; [destruct k; discriminate|].
  destruct Hp as [H1 H2]. destruct k as [|k]; cbn in Hk.
  - inversion Hk; subst. lia.
  - specialize (IH _ _ _ H2 HD Hk). lia.
Qed.

(* C03 (composition), arithmetic only.  The premises: the crash is at tc; the first tick after it starts by
   tc + pi (written tc + pi - D + D, so that [paced] covers it) and consecutive ticks start at most
   D = awmax*pi apart; the k-th of them (k < 2n) probes the crashed peer and fails by its end e, at most D
   later; the suspicion it starts lasts at most smax.  Then the peer is declared dead by tc + detect_bound. *)
Theorem detection_composes (n : nat) pi awmax smax tc (starts : list Z) k tk e dl :
  0 <= pi -> 1 <= awmax ->
  paced (awmax * pi) (tc + pi - awmax * pi) starts ->
  (k < 2 * n)%nat -> nth_error starts k = Some tk ->
  e <= tk + awmax * pi -> dl <= e + smax ->
  dl <= tc + detect_bound (Z.of_nat n) pi awmax smax.
Proof.
  intros Hpi Haw Hp Hk Hn He Hdl. unfold detect_bound.
  assert (HD : 0 <= awmax * pi) by nia.
  pose proof (paced_nth _ _ _ _ _ Hp HD Hn) as Ht.
  assert (Z.of_nat k + 1 <= 2 * Z.of_nat n) by lia.
  nia.
Qed.
