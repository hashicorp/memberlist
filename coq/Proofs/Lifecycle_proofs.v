From VF Require Import Base Lifecycle Core Core_lemmas Core_inv Core_props.

(* What a call does to the flags the theorems follow, and what it may return.  Only Leave (reading
   shut, left_, self_present) and Reap (reading shut) branch on the state: each proof splits on the
   call and, for those two, on the flags the branch reads. *)

Lemma shut_step lf s c : shut (fst (lstep lf s c)) = match c with LShutdown => true | _ => shut s end.
Proof.
  destruct s as [sh le sp ag tr], c; try reflexivity; cbn.
  - destruct sh, le, sp; reflexivity.
  - destruct sh; reflexivity.
Qed.

(* repaired code: no call removes or restores the own record *)
Lemma self_step s c : self_present (fst (lstep true s c)) = self_present s.
Proof.
  destruct s as [sh le sp ag tr], c; try reflexivity; cbn.
  - destruct sh, le, sp; reflexivity.
  - destruct sh; [reflexivity | apply andb_true_r].
Qed.

Lemma lstep_no_panic s c : self_present s = true -> (match c with LLeave => negb (shut s) | _ => true end) = true ->
  lpanic (snd (lstep true s c)) = false.
Proof.
  destruct s as [sh le sp ag tr], c; cbn; intros -> Hc; try reflexivity.
  - destruct sh; [discriminate|]. destruct le; reflexivity.
  - destruct sh; reflexivity.
Qed.

(* a closed transport carries nothing and is never reopened, repaired code or not *)
Lemma closed_step lf s c : transport_open s = false ->
  lsent (snd (lstep lf s c)) = false /\ transport_open (fst (lstep lf s c)) = false.
Proof.
  destruct s as [sh le sp ag tr], c; cbn; intros ->; try (split; reflexivity).
  - (* UpdateNode *) split; [apply andb_false_r | reflexivity].
  - (* Leave *) destruct sh, le, sp; split; reflexivity.
  - (* Shutdown *) destruct lf; split; reflexivity.
  - (* Reap *) destruct sh; split; reflexivity.
Qed.

Lemma allowed_cons sh c cs : allowed_seq sh (c :: cs) =
  (match c with LLeave => negb sh | _ => true end) && allowed_seq (match c with LShutdown => true | _ => sh end) cs.
Proof. destruct c; reflexivity. Qed.

(* every result of a run satisfies Q, given an invariant of the state and the calls still to come
   that secures Q for the next call *)
Lemma lrun_Forall lf (I : lstate -> list lcall -> Prop) (Q : lres -> Prop) :
  (forall s c cs, I s (c :: cs) -> Q (snd (lstep lf s c)) /\ I (fst (lstep lf s c)) cs) ->
  forall cs s, I s cs -> Forall Q (snd (lrun lf s cs)).
Proof.
  intro Hstep. induction cs as [|c cs IH]; intros s HI; cbn [lrun]; [constructor|].
  destruct (Hstep s c cs HI) as [Hq HI1]. destruct (lstep lf s c) as [s1 r].
  specialize (IH s1 HI1). destruct (lrun lf s1 cs) as [s2 rs]. constructor; assumption.
Qed.

(* C20: no allowed sequence of public calls and background steps panics *)
Theorem no_panic : forall cs s, self_present s = true -> allowed_seq (shut s) cs = true ->
  Forall (fun r => lpanic r = false) (snd (lrun true s cs)).
Proof.
  intros cs s Hp Ha.
  apply (lrun_Forall true (fun s cs => self_present s = true /\ allowed_seq (shut s) cs = true)); [|auto].
  clear. intros s c cs [Hp Ha]. rewrite allowed_cons in Ha. apply andb_true_iff in Ha as [Hc Ha].
  rewrite self_step, shut_step. auto using lstep_no_panic.
Qed.

Theorem shutdown_idempotent s : let s1 := fst (lstep true s LShutdown) in lstep true s1 LShutdown = (s1, mkLR false false).
Proof. destruct s; reflexivity. Qed.

Theorem leave_idempotent s : shut s = false -> self_present s = true ->
  let s1 := fst (lstep true s LLeave) in lstep true s1 LLeave = (s1, mkLR false false).
Proof. destruct s as [sh le sp ag tr]; cbn; intros -> ->. destruct le; reflexivity. Qed.

(* C20_silent_after_shutdown: once the transport is closed nothing uses the network any more
   (whether Shutdown has been called does not matter) *)
Theorem closed_transport_silent lf : forall cs s, transport_open s = false ->
  Forall (fun r => lsent r = false) (snd (lrun lf s cs)).
Proof.
  intros cs s. apply (lrun_Forall lf (fun s _ => transport_open s = false)).
  intros s1 c _. apply closed_step.
Qed.

Theorem shutdown_closes_transport s : let s1 := fst (lstep true s LShutdown) in shut s1 = true /\ transport_open s1 = false.
Proof. destruct s; split; reflexivity. Qed.

(* the link to the membership model: in every reachable node state of the repaired code the node's own
   record exists -- the reaping pass never removes it (what LocalNode / UpdateNode / Leave dereference) *)
Theorem self_record_kept c : fixed c = true -> forall s o r,
  FInv c s -> op_ok c s o -> lk s (self c) = Some r -> exists r', lk (fst (step c s o)) (self c) = Some r'.
Proof.
  intros Hf s o r HI Ho L. destruct (step_monotone c Hf s o HI Ho (self c) r L) as [[r' [L' _]]|[_ [_ [_ Hn]]]].
  - exists r'. exact L'.
  - contradiction.
Qed.

(* the pinned tree: leave, let the own record age out, reap, then use an accessor *)
Example localnode_refuted :
  map lpanic (snd (lrun false l0 [LLeave; LAdvance; LReap; LLocalNode; LUpdateNode])) = [false; false; false; true; true].
Proof. vm_compute. reflexivity. Qed.

Example dial_after_shutdown_refuted :
  map lsent (snd (lrun false l0 [LShutdown; LSendReliable])) = [false; true].
Proof. vm_compute. reflexivity. Qed.

Example core_reaps_self_refuted :
  let c := mkCfg 0 0 [1;5;2;0;0;0]%N 0 30000000000 2 4000000000 6 [] 8 true false [] false in
  let s := fst (run c (boot c 1) [OLeave 1000000; OAdvance 31000000001; OReap]) in
  lk s 0 = None /\ snd (step c s (OUpdate 2 1000000)) = [EvPanic].
Proof. vm_compute. split; reflexivity. Qed.
