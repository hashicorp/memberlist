(* Susp_proofs.v — the Lifeguard bounds and confirmation rules of the suspicion timer. *)
From VF Require Import Base Susp.
Local Open Scope Z_scope.

Section WithTable.
Variable T : Z -> Z.
Variables k mn mx : Z.

(* what the float formula must satisfy (validated on the code's own table on every run) *)
Definition T_ok : Prop :=
  mn <= mx /\
  (forall n, 1 <= n <= k -> mn <= T n <= mx) /\
  (forall n m, 1 <= n <= m -> m <= k -> T m <= T n).

Hypothesis HT : T_ok.

(* invariant of a suspicion started at [st] *)
Record SInv (st : Z) (s : susp) : Prop := mkSInv {
  si_k : sk s = k; si_start : sstart s = st;
  si_n0 : 0 <= sn s; si_nk : 1 <= k -> sn s <= k;
  si_lo : st + mn <= sdeadline s; si_hi : sdeadline s <= st + mx;
  si_first : sfired s = false -> sn s = 0 -> 1 <= k -> sdeadline s = st + mx;
  si_T : sfired s = false -> 1 <= sn s -> st + T (sn s) <= sdeadline s;
  si_k0 : k < 1 -> sdeadline s = st + mn /\ sn s = 0 }.

Lemma snew_inv from st : SInv st (snew from k mn mx st).
Proof. destruct HT as [H1 _]. unfold snew. destruct (Z.ltb_spec k 1); split; cbn; lia. Qed.

(* letting time pass changes nothing but the fired flag, set once the deadline is reached *)
Lemma stick_eq s now : stick s now =
  mkSusp (sk s) (smin s) (smax s) (sstart s) (sn s) (sconfs s) (sdeadline s) (sfired s || (sdeadline s <=? now)).
Proof. unfold stick. destruct s as [? ? ? ? ? ? dl []]; cbn; [|destruct (dl <=? now)]; reflexivity. Qed.

Lemma stick_inv st s now : SInv st s -> SInv st (stick s now).
Proof.
  intros [A B C D E F G H I]. rewrite stick_eq.
  split; cbn; auto; intro X; apply orb_false_iff in X as [X _]; auto.
Qed.

(* a pending timer never stands earlier than the next entry of the schedule *)
Lemma next_le_deadline st s : SInv st s -> sfired s = false -> sn s < k ->
  st + T (sn s + 1) <= sdeadline s.
Proof.
  intros [A B C D E F G H I] Hf Hk. destruct HT as [_ [T2 T3]].
  destruct (Z.eq_dec (sn s) 0) as [Z0|NZ].
  - (* nothing confirmed yet: the deadline is still start + max *)
    rewrite (G Hf Z0) by lia. specialize (T2 (sn s + 1)). lia.
  - (* the schedule does not increase *)
    specialize (T3 (sn s) (sn s + 1)). specialize (H Hf). lia.
Qed.

(* re-arming to [st + t] at time [now], as the code computes it *)
Lemma rearm now st t :
  (if 0 <? t - (now - st) then now + (t - (now - st)) else now) = Z.max now (st + t)
  /\ negb (0 <? t - (now - st)) = (st + t <=? now).
Proof. destruct (Z.ltb_spec 0 (t - (now - st))), (Z.leb_spec (st + t) now); cbn; split; lia. Qed.

(* Confirm in two equations.  A confirmation that does not count only lets time pass ... *)
Lemma sconfirm_reject s from now : sk s <= sn s \/ Nmem from (sconfs s) = true ->
  sconfirm T s from now = (stick s now, false).
Proof.
  intro R. unfold sconfirm. rewrite stick_eq. cbn [sk sn sconfs].
  destruct (Z.leb_spec (sk s) (sn s)); [reflexivity|]. destruct R as [R| ->]; [lia | reflexivity].
Qed.

(* ... one that counts also records the sender and, unless the timer has fired, re-arms it to
   start + T (n+1), or to now if that is already past *)
Lemma sconfirm_accept s from now : sn s < sk s -> Nmem from (sconfs s) = false ->
  let f := sfired s || (sdeadline s <=? now) in let t := sstart s + T (sn s + 1) in
  sconfirm T s from now =
  (mkSusp (sk s) (smin s) (smax s) (sstart s) (sn s + 1) (from :: sconfs s)
          (if f then sdeadline s else Z.max now t) (f || (t <=? now)), true).
Proof.
  intros Hk Hm. unfold sconfirm. rewrite stick_eq. cbn [sk smin smax sstart sn sconfs sdeadline sfired].
  rewrite Hm. destruct (Z.leb_spec (sk s) (sn s)); [lia|].
  destruct (rearm now (sstart s) (T (sn s + 1))) as [-> ->]. reflexivity.
Qed.

(* what a counted confirmation must do with the deadline: stay within start + min and the old
   deadline and, while pending, not undercut the schedule *)
Lemma SInv_confirm st s from dl f : SInv st s -> sn s < k ->
  st + mn <= dl <= sdeadline s -> (f = false -> st + T (sn s + 1) <= dl) ->
  SInv st (mkSusp (sk s) (smin s) (smax s) (sstart s) (sn s + 1) (from :: sconfs s) dl f).
Proof. intros [A B C D E F G I J] Hk Hdl Hf. split; cbn; lia || auto. Qed.

(* one confirmation at time [now], which need not lie after the start *)
Lemma sconfirm_spec st s from now :
  SInv st s ->
  let '(s', b) := sconfirm T s from now in
  SInv st s'
  /\ sdeadline s' <= sdeadline s                                  (* only ever shortens *)
  /\ (sfired (stick s now) = true -> sdeadline s' = sdeadline s)  (* nothing moves after firing *)
  /\ (b = true -> Nmem from (sconfs s) = false /\ sn s < k /\ sn s' = sn s + 1 /\ sconfs s' = from :: sconfs s)
  /\ (b = false -> sn s' = sn s /\ sconfs s' = sconfs s /\ sdeadline s' = sdeadline s)
  /\ (b = true -> sfired (stick s now) = false ->
        sdeadline s' = Z.max now (st + T (sn s + 1)) /\ sfired s' = (st + T (sn s + 1) <=? now)).
Proof.
  intros H. pose proof (si_start _ _ H). subst st.
  destruct (Z.leb_spec (sk s) (sn s)) as [Hk|Hk]; [|destruct (Nmem from (sconfs s)) eqn:Hm].
  (* not counted: only time passes *)
  1,2: rewrite sconfirm_reject by auto; split; [apply stick_inv, H|];
       rewrite stick_eq; cbn [sdeadline sn sconfs]; repeat split; discriminate || reflexivity.
  (* counted *)
  rewrite sconfirm_accept by assumption. set (s' := mkSusp _ _ _ _ _ _ _ _).
  rewrite (si_k _ _ H) in Hk.
  assert (Hdl : sstart s + mn <= sdeadline s' <= sdeadline s).
  { cbn. destruct (sfired s || (sdeadline s <=? now)) eqn:F.
    - (* the timer has fired: the deadline is history *)
      pose proof (si_lo _ _ H). lia.
    - (* still pending, so now < deadline *)
      apply orb_false_iff in F as [Fs Hlt]. apply Z.leb_gt in Hlt.
      pose proof (next_le_deadline _ _ H Fs Hk).
      assert (mn <= T (sn s + 1)) by (apply HT; pose proof (si_n0 _ _ H); lia). lia. }
  split. { apply SInv_confirm; trivial. intro X. apply orb_false_iff in X as [-> _]. lia. }
  split. { apply Hdl. }
  rewrite stick_eq. cbn.
  split. { intros ->. reflexivity. }
  split. { auto. }
  split. { discriminate. }
  intros _ ->. split; reflexivity.
Qed.

(* a timed sequence of confirmations with non-decreasing times (assumed by the statements of C06;
   nothing below depends on the order of the times) *)
Fixpoint times_ok (t0 : Z) (cs : list (N * Z)) : Prop :=
  match cs with [] => True | (_, t) :: cs' => t0 <= t /\ times_ok t cs' end.

(* C06_bounds: over every schedule, whatever the order of its times, the deadline stays inside
   [start+min, start+max] and never moves later *)
Theorem srun_bounds : forall cs st s, SInv st s ->
  let s' := fst (srun T s cs) in
  SInv st s' /\ st + mn <= sdeadline s' <= st + mx /\ sdeadline s' <= sdeadline s.
Proof.
  induction cs as [|[from t] cs IH]; intros st s H; cbn [srun].
  - pose proof (si_lo _ _ H). pose proof (si_hi _ _ H). cbn [fst]. auto with zarith.
  - pose proof (sconfirm_spec st s from t H) as SP.
    destruct (sconfirm T s from t) as [s1 b]. destruct SP as (H1 & Hd & _).
    specialize (IH st s1 H1). destruct (srun T s1 cs) as [s2 bs]. cbn [fst] in *.
    destruct IH as (I1 & I2 & I3). split; [exact I1|]. split; [exact I2 | lia].
Qed.

(* accepted confirmations are the growth of n; every accepted sender is recorded, so it cannot count twice;
   at most k are accepted *)
Theorem srun_confirmers : forall cs st s, SInv st s ->
  let '(s', bs) := srun T s cs in
  sn s' - sn s = Z.of_nat (length (filter (fun b => b) bs))
  /\ (forall x, Nmem x (sconfs s) = true -> Nmem x (sconfs s') = true)
  /\ Forall2 (fun c b => b = true -> Nmem (fst c) (sconfs s') = true) cs bs
  /\ (1 <= k -> sn s' <= k) /\ (k < 1 -> Forall (fun b => b = false) bs).
Proof.
  induction cs as [|[from t] cs IH]; intros st s H; cbn [srun].
  - split; [cbn; lia|]. split; [auto|]. split; [constructor|]. split; [apply (si_nk _ _ H) | constructor].
  - pose proof (sconfirm_spec st s from t H) as SP.
    destruct (sconfirm T s from t) as [s1 b]. destruct SP as (H1 & _ & _ & Hb1 & Hb0 & _).
    specialize (IH st s1 H1). destruct (srun T s1 cs) as [s2 bs].
    destruct IH as (I1 & I2 & I3 & I4 & I5). destruct b; cbn [filter length fst].
    + destruct (Hb1 eq_refl) as (_ & Hlt & En & Ec).
      assert (Hin : forall x, In x (from :: sconfs s) -> Nmem x (sconfs s2) = true).
      { intros x Hx. apply I2. rewrite Ec. apply Nmem_In, Hx. }
      split. { lia. }
      split. { intros x Hx. apply Hin. right. apply Nmem_In, Hx. }
      split. { constructor; [intros _; apply Hin, in_eq | exact I3]. }
      split. { exact I4. }
      pose proof (si_n0 _ _ H). lia.
    + destruct (Hb0 eq_refl) as (En & Ec & _). rewrite <- Ec.
      split. { lia. }
      split. { exact I2. }
      split. { constructor; [discriminate | exact I3]. }
      split. { exact I4. }
      intro Hk. constructor; auto.
Qed.

(* an accepted confirmation is from a node not counted before (in particular never the accuser,
   who is in the set from the start) *)
Theorem sconfirm_fresh st s from now : SInv st s -> st <= now ->
  snd (sconfirm T s from now) = true -> Nmem from (sconfs s) = false.
Proof using HT.
  (* by the first equation alone: neither the invariant nor the table is needed *)
  intros _ _ E. destruct (Nmem from (sconfs s)) eqn:M; [|reflexivity].
  rewrite sconfirm_reject in E by auto. discriminate.
Qed.

(* with too few peers to confirm (k < 1) the minimum timeout is used from the start *)
Theorem k0_min from st : k < 1 -> sdeadline (snew from k mn mx st) = st + mn.
Proof. intro H. unfold snew; cbn. destruct (Z.ltb_spec k 1); [reflexivity | lia]. Qed.

End WithTable.
