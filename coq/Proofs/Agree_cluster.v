(* Agree_cluster.v — C04, the health score, for the whole healthy cluster: every alive claim about a
   member — wherever it is held, queued or in flight — is an echo of that member's own record or
   older than it.  Hence no node ever has to refute anything, and every health score stays at zero. *)
From VF Require Import Base Core Core_lemmas Core_inv Healthy_proofs Cluster Cluster_proofs Agree_proofs.
Local Open Scope Z_scope.

Definition pool_claim (p : pmsg) : option aclaim :=
  match p with
  | PB (BAlive inc n a m v) | PS Alive inc n a m v => Some (mkA n inc a m v)
  | _ => None
  end.

Definition world_holds (w : world) (a : aclaim) : Prop :=
  (exists c s, In (c, s) (wnodes w) /\ holds s a) \/ (exists p, In p (wpool w) /\ pool_claim p = Some a).

Record AW (w : world) : Prop := mkAW {
  aw_wi : WI w;
  aw_nodes : forall c s, In (c, s) (wnodes w) ->
               length (self_vsn c) = 6%nat /\ own_inc c s /\ left_inv c s /\ score s = 0;
  aw_len : forall a, world_holds w a -> length (a_vsn a) = 6%nat;
  aw_agree : forall a, world_holds w a -> forall c s r, In (c, s) (wnodes w) -> self c = a_name a ->
               lk s (self c) = Some r -> eos r a }.

Lemma eos_same r r' a : same_fields r r' -> eos r a -> eos r' a.
Proof. intros [E1 [E2 [E3 E4]]] [H|[H1 [H2 [H3 H4]]]]; [left; lia | right; repeat split; congruence]. Qed.

Lemma eos_newer r r' a : (rinc r < rinc r')%N -> eos r a -> eos r' a.
Proof. intros Lt [H|[H1 _]]; left; lia. Qed.

Lemma at_node_AW w i o c s :
  AW w -> nth_error (wnodes w) i = Some (c, s) ->
  (forall dep', (forall n, departed w n = true -> dep' n = true) ->
                (match o with OLeave _ => dep' (self c) = true | _ => True end) ->
                benign dep' c s o) ->
  agreeable c s o ->
  (forall a, op_claim o = Some a -> world_holds w a) ->
  AW (fst (at_node w i o)).
Proof.
  intros [HW Hn Hl Ha] Hi Hb Hag Hop.
  pose proof (at_node_WI w i o c s HW Hi Hb) as P. rewrite (at_node_put w i o c s Hi) in *.
  assert (Hin : In (c, s) (wnodes w)) by (eapply nth_error_In; exact Hi).
  destruct (Hn c s Hin) as [Hv [Hoi [Hli Hsc]]].
  pose proof HW as [Wn Wp Wu]. destruct (Wn c s Hin) as [Hf Hc].
  (* the node-level step; which names count as departed does not matter here: all do *)
  pose proof (step_agree (fun _ => true) c Hf Hv s o (clean_mono _ _ c s (fun _ _ => eq_refl) Hc) Hoi Hli) as [S1 S2 S3 S4 S5];
    [apply Hb; [auto | destruct o; auto] | exact Hag |].
  destruct P as [PW _]. cbn [fst] in *. set (s' := fst (step c s o)) in *.
  pose proof (put_In w i c s s' Hi) as In'.
  (* what the new world holds: what the old one held, or node i's new announcement (echoed by its record) *)
  assert (Hold : forall a, world_holds (put w i c s') a -> world_holds w a \/
            (a_name a = self c /\ a_vsn a = self_vsn c /\ exists r', lk s' (self c) = Some r' /\ rec_claim (self c) r' = a)).
  { intros a [[c0 [s0 [H0 Hh]]]|[p [Hp Hc']]]; [|left; right; exists p; auto].
    apply In' in H0. destruct H0 as [E|[j [_ Hj]]].
    - inversion E; subst c0 s0. destruct (S1 a Hh) as [H|[H|[meta [wt [r0 [r' [_ [_ [Ea [Lr' Ec]]]]]]]]]].
      + left. left. exists c, s. auto.
      + left. apply Hop. exact H.
      + right. rewrite Ea. cbn. split; [reflexivity|]. split; [reflexivity|]. exists r'. rewrite <- Ea. auto.
    - left. left. exists c0, s0. split; [eapply nth_error_In; exact Hj | exact Hh]. }
  constructor.
  - exact PW.
  - apply (put_nodes w i c s s' Hi); [exact Hn|]. split; [exact Hv|]. split; [exact S4|]. split; [exact S5 | rewrite S2; exact Hsc].
  - intros a Hh. destruct (Hold a Hh) as [H|[_ [Ev _]]]; [apply Hl; exact H | rewrite Ev; exact Hv].
  - intros a Hh c0 s0 r0 H0 En L0. apply In' in H0. destruct H0 as [E|[j [Nj Hj]]].
    + inversion E; subst c0 s0.
      destruct (cl_self _ _ _ Hc) as [r Lr]. destruct (S3 r Lr) as [r' [Lr' Hrel]].
      rewrite L0 in Lr'. inversion Lr'; subst r'.
      destruct (Hold a Hh) as [H|[_ [_ [r1 [Lr1 Ec]]]]].
      * pose proof (Ha a H c s r Hin En Lr) as E0.
        destruct Hrel as [Sf|[meta [wt [_ [Lt _]]]]]; [eapply eos_same; eassumption | eapply eos_newer; eassumption].
      * rewrite L0 in Lr1. inversion Lr1; subst r1. right. rewrite <- Ec. cbn. repeat split.
    + (* another node, unchanged *)
      destruct (Hold a Hh) as [H|[Na _]]; [apply (Ha a H c0 s0 r0 (nth_error_In _ _ Hj) En L0)|].
      exfalso. apply Nj. apply (name_index w j i c0 s0 c s Wu Hj Hi). congruence.
Qed.

(* a world that only grew its pool by claims some node holds *)
Lemma AW_pool_grow w extra :
  AW w -> WI (mkW (wnodes w) (extra ++ wpool w)) ->
  (forall p a, In p extra -> pool_claim p = Some a -> exists c s, In (c, s) (wnodes w) /\ holds s a) ->
  AW (mkW (wnodes w) (extra ++ wpool w)).
Proof.
  intros [HW Hn Hl Ha] HW' Hex.
  assert (Hold : forall a, world_holds (mkW (wnodes w) (extra ++ wpool w)) a -> world_holds w a).
  { intros a [H|[p [Hp Hc]]]; [left; exact H|]. cbn [wpool] in Hp. apply in_app_or in Hp. destruct Hp as [Hp|Hp].
    - left. apply (Hex p a Hp Hc).
    - right. exists p. auto. }
  constructor; cbn [wnodes]; auto.
  intros a Hh c s r Hin En L. apply (Ha a (Hold a Hh) c s r Hin En L).
Qed.

(* what the healthy cluster makes a node execute carries, if it is an alive claim, one the cluster holds:
   six bytes of versions and, if about this node, an echo of its record or older *)
Lemma op_from_agree w a i c s o :
  AW w -> nth_error (wnodes w) i = Some (c, s) -> op_from w c s (GA a) i o ->
  agreeable c s o /\ forall cl, op_claim o = Some cl -> world_holds w cl.
Proof.
  intros [HW Hn Hl Ha] Hi Ho. pose proof (nth_error_In _ _ Hi) as Hin.
  inversion Ho as [i0 k p Hk| | | | |]; subst; try (split; [exact I | discriminate]).
  assert (Hp : forall cl, pool_claim p = Some cl -> world_holds w cl).
  { intros cl E. right. exists p. split; [eapply nth_error_In; exact Hk | exact E]. }
  assert (Ag : forall inc name addr meta vsn, pool_claim p = Some (mkA name inc addr meta vsn) -> alive_in c s name inc addr meta vsn).
  { intros inc name addr meta vsn E. split; [apply (Hl _ (Hp _ E))|].
    intros En r L. apply (Ha _ (Hp _ E) c s r Hin); [cbn; congruence | exact L]. }
  destruct p as [[inc name addr meta vsn | inc name from | inc name from] | [] inc name addr meta vsn];
    cbn [op_of agreeable op_claim pool_claim] in *; (split; [auto | try discriminate; intros cl E; apply Hp, E]).
Qed.

Theorem wstep_AW w a : AW w -> act_ok w a -> AW (fst (wstep w a)).
Proof.
  intros HA Hok. pose proof HA as [HW Hn Hl Ha]. pose proof (wstep_WI w a HW Hok) as PW.
  change (wstep w a) with (gstep w (GA a)) in *. revert PW.
  destruct (gstep_delta w (GA a)) as [i c s ps Hi Hps | i c s o Hi Ho |]; intro PW; cbn [fst].
  - apply AW_pool_grow; [exact HA | apply PW|].
    intros p cl Hp Hc. exists c, s. split; [eapply nth_error_In; exact Hi|].
    destruct (Hps p Hp) as [[k [m [Hin ->]]]|[n [r [Hin ->]]]]; cbn in Hc.
    + destruct m; try discriminate. inversion Hc; subst cl. right. exists k. exact Hin.
    + destruct (rst r) eqn:Er; try discriminate. inversion Hc; subst cl. left. exists r. cbn [a_name]. auto.
  - destruct (op_from_agree w a i c s o HA Hi Ho) as [Hag Hop].
    apply (at_node_AW w i o c s HA Hi); [eapply op_from_benign; eassumption | exact Hag | exact Hop].
  - exact HA.
Qed.

Theorem wrun_AW : forall l w, AW w -> run_ok w l -> AW (fst (wrun w l)).
Proof.
  induction l as [|a l IH]; intros w HA Hok; [exact HA|]. destruct Hok as [Ha Hl].
  rewrite wrun_cons. apply IH; [apply wstep_AW; assumption | exact Hl].
Qed.

Definition good_cfg6 (c : cfg) : Prop := good_cfg c /\ length (self_vsn c) = 6%nat.

(* the state a node with six version bytes boots into, and the one claim it holds *)
Lemma boot6 c m : good_cfg6 c ->
  boot c m = mkS [(self c, mkRec 1 Alive (self_addr c) m (self_vsn c) 0)] 1 [] 1 false 0
                 [(kname (self c), BAlive 1 (self c) (self_addr c) m (self_vsn c))] 0.
Proof. intros [[F [V A]] L6]. rewrite (boot_eq c m A V), (vsn6 _ _ L6). reflexivity. Qed.

Lemma boot_holds c m a : good_cfg6 c -> holds (boot c m) a -> a = mkA (self c) 1 (self_addr c) m (self_vsn c).
Proof.
  intros G Hh. rewrite (boot6 c m G) in Hh. destruct a. destruct Hh as [[r [[E|[]] [_ Er]]]|[k [E|[]]]]; inversion E; subst.
  - symmetry. exact Er.
  - reflexivity.
Qed.

Lemma boot_world_AW cs :
  Forall (fun cm => good_cfg6 (fst cm)) cs -> NoDup (map (fun cm => self (fst cm)) cs) -> AW (boot_world cs).
Proof.
  intros Hg Hu.
  assert (Hg' : Forall (fun cm => good_cfg (fst cm)) cs) by (eapply Forall_impl; [|exact Hg]; intros x [H _]; exact H).
  (* whatever the booted world holds is the first announcement of one of its nodes *)
  assert (Held : forall a, world_holds (boot_world cs) a -> exists c m, In (c, boot c m) (wnodes (boot_world cs)) /\ good_cfg6 c /\
                   a = mkA (self c) 1 (self_addr c) m (self_vsn c)).
  { intros a [[c [s [Hin Hh]]]|[p [[] _]]]. destruct (boot_world_node _ cs c s Hg Hin) as [G [m ->]].
    exists c, m. auto using boot_holds. }
  constructor.
  - apply boot_world_WI; assumption.
  - intros c s Hin. destruct (boot_world_node _ cs c s Hg Hin) as [G [m ->]]. rewrite (boot6 c m G).
    split; [apply G|]. split; [|split; [discriminate | reflexivity]].
    intros r L. unfold lk in L. cbn in L. rewrite N.eqb_refl in L. inversion L. cbn. lia.
  - intros a Hh. destruct (Held a Hh) as [c [m [_ [[_ L6] ->]]]]. exact L6.
  - intros a Hh c0 s0 r0 H0 En L0. destruct (Held a Hh) as [c [m [Hin [G ->]]]].
    assert (X : (c0, s0) = (c, boot c m)) by (apply (unique_node (boot_world cs)); auto; rewrite boot_world_names; exact Hu).
    inversion X; subst c0 s0. rewrite (boot6 c m G) in L0. unfold lk in L0. cbn in L0. rewrite N.eqb_refl in L0. inversion L0.
    right. cbn. auto.
Qed.

(* C04: every health score stays at zero — in every reachable state of the healthy cluster *)
Theorem scores_stay_zero cs acts :
  Forall (fun cm => good_cfg6 (fst cm)) cs -> NoDup (map (fun cm => self (fst cm)) cs) ->
  run_ok (boot_world cs) acts ->
  forall c s, In (c, s) (wnodes (fst (wrun (boot_world cs) acts))) -> score s = 0.
Proof.
  intros Hg Hu Hok c s Hin. pose proof (wrun_AW acts _ (boot_world_AW cs Hg Hu) Hok) as [_ Hn _ _].
  apply (Hn c s Hin).
Qed.
