(* Agree_proofs.v — C04, the health score.  One node: if every alive claim about the node itself that
   it is fed is an echo of its own record or older than it, the node never refutes, its health score does
   not move, and every alive claim it holds afterwards was held before, is the claim it was fed, or is
   the node's own new announcement (UpdateNode). *)
From VF Require Import Base Core Core_lemmas Core_inv Healthy_proofs.
Local Open Scope Z_scope.

(* an alive claim: name, incarnation, address, metadata, version vector *)
Record aclaim := mkA { a_name : N; a_inc : N; a_addr : N; a_meta : N; a_vsn : list N }.
Definition rec_claim (n : N) (r : rec) : aclaim := mkA n (rinc r) (raddr r) (rmeta r) (rvsn r).

(* the claims a node holds: its Alive records and the alive messages in its broadcast queue *)
Definition holds (s : nstate) (a : aclaim) : Prop :=
  (exists r, In (a_name a, r) (recs s) /\ rst r = Alive /\ rec_claim (a_name a) r = a) \/
  (exists k, In (k, BAlive (a_inc a) (a_name a) (a_addr a) (a_meta a) (a_vsn a)) (bq s)).

(* an echo of the record r, or older *)
Definition eos (r : rec) (a : aclaim) : Prop :=
  (a_inc a < rinc r)%N \/ (a_inc a = rinc r /\ a_addr a = raddr r /\ a_meta a = rmeta r /\ a_vsn a = rvsn r).

(* six version bytes are recorded as they come *)
Lemma vsn6 (v d : list N) : length v = 6%nat -> (if (6 <=? length v)%nat then firstn 6 v else d) = v.
Proof. intro H. rewrite H. cbn [Nat.leb]. rewrite <- H. apply firstn_all. Qed.

Lemma holds_same s s' a : recs s' = recs s -> bq s' = bq s -> holds s' a -> holds s a.
Proof. unfold holds. intros -> ->. auto. Qed.

Lemma holds_commit s n r m ts a : holds (commit s n r m ts) a ->
  holds s a \/ (rst r = Alive /\ rec_claim n r = a) \/ m = BAlive (a_inc a) (a_name a) (a_addr a) (a_meta a) (a_vsn a).
Proof.
  intros [[r' [H [A E]]]|[k H]]; cbn [commit set_timers set_rec set_bq recs bq] in H; apply In_aset in H; destruct H as [X|H].
  - inversion X; subst. auto.
  - left. left. eauto.
  - inversion X. auto.
  - left. right. eauto.
Qed.

(* the claim a call makes, if it is an alive claim; whether it is the node's own announcement *)
Definition call_claim (k : call) : option aclaim :=
  match k with CAlive inc name addr meta vsn _ => Some (mkA name inc addr meta vsn) | _ => None end.
Definition announces (k : call) : bool := match k with CAlive _ _ _ _ _ b => b | _ => false end.

Section Node.
Variable dep : N -> bool.
Variable c : cfg.
Hypothesis Hfixed : fixed c = true.
Hypothesis Hvsn : length (self_vsn c) = 6%nat.

(* alive claims fed to the node: six version bytes; about the node itself only echoes or older ones *)
Definition alive_in (s : nstate) (name inc addr meta : N) (vsn : list N) : Prop :=
  length vsn = 6%nat /\
  (name = self c -> forall r, lk s (self c) = Some r -> eos r (mkA name inc addr meta vsn)).

Definition agreeable (s : nstate) (o : op) : Prop :=
  match o with
  | OAlive inc name addr meta vsn _ | OHandleAlive _ inc name addr meta vsn | OMerge Alive inc name addr meta vsn =>
      alive_in s name inc addr meta vsn
  | _ => True
  end.

Definition op_claim (o : op) : option aclaim :=
  match o with
  | OAlive inc name addr meta vsn _ | OHandleAlive _ inc name addr meta vsn | OMerge Alive inc name addr meta vsn =>
      Some (mkA name inc addr meta vsn)
  | _ => None
  end.

(* the node's own record never runs ahead of its counter *)
Definition own_inc (s : nstate) : Prop := forall r, lk s (self c) = Some r -> (rinc r <= linc s)%N.

(* a node that has called Leave holds itself Left (or Dead) *)
Definition left_inv (s : nstate) : Prop :=
  leaving s = true -> forall r, lk s (self c) = Some r -> dead_or_left (rst r) = true.

Definition same_fields (r r' : rec) : Prop :=
  rinc r' = rinc r /\ raddr r' = raddr r /\ rmeta r' = rmeta r /\ rvsn r' = rvsn r.

Record agree_step (s s' : nstate) (o : op) : Prop := mkAS {
  as_holds : forall a, holds s' a -> holds s a \/ op_claim o = Some a \/
               (* the node's own new announcement, which its own record now echoes *)
               (exists meta w r0 r', o = OUpdate meta w /\ lk s (self c) = Some r0 /\
                                     a = mkA (self c) (linc s + 1) (raddr r0) meta (self_vsn c) /\
                                     lk s' (self c) = Some r' /\ rec_claim (self c) r' = a);
  as_score : score s' = score s;
  as_own : forall r, lk s (self c) = Some r -> exists r', lk s' (self c) = Some r' /\
             (same_fields r r' \/
              (exists meta w, o = OUpdate meta w /\ (rinc r < rinc r')%N /\
                              rec_claim (self c) r' = mkA (self c) (linc s + 1) (raddr r) meta (self_vsn c)));
  as_own_inc : own_inc s';
  as_left : left_inv s' }.

Lemma same_fields_refl r : same_fields r r. Proof. repeat split. Qed.

(* A claim the node need not contradict.  Alive: six version bytes, and about the node itself either its
   own announcement, at an incarnation it has drawn, or an echo of its record, or older ([alive_in]).
   The departure of the node itself: at its own incarnation, unless it is gone already. *)
Definition echo_call (s : nstate) (k : call) : Prop :=
  match k with
  | CAlive inc name addr meta vsn b =>
      length vsn = 6%nat /\
      (name = self c -> forall r, lk s (self c) = Some r -> if b then (inc <= linc s)%N else eos r (mkA name inc addr meta vsn))
  | CDead inc name _ => name = self c -> forall r, lk s (self c) = Some r -> dead_or_left (rst r) = false -> inc = rinc r
  | CSuspect _ _ _ => True
  end.

(* What the claim does to what the node holds: whatever is new is the claim, now on record; the node's own
   record keeps its fields, unless the claim is the node's own announcement. *)
Record agrees (s s' : nstate) (k : call) : Prop := mkAg {
  ag_holds : forall a, holds s' a -> holds s a \/
               (call_claim k = Some a /\ exists r', lk s' (a_name a) = Some r' /\ rec_claim (a_name a) r' = a);
  ag_score : score s' = score s;
  ag_own : forall r, lk s (self c) = Some r -> exists r', lk s' (self c) = Some r' /\
             (same_fields r r' \/ (announces k = true /\ call_claim k = Some (rec_claim (self c) r')));
  ag_own_inc : own_inc s';
  ag_left : left_inv s -> left_inv s' }.

Lemma agrees_same s s' s'' k : recs s'' = recs s' -> bq s'' = bq s' -> score s'' = score s' -> linc s'' = linc s' ->
  leaving s'' = leaving s' -> agrees s s' k -> agrees s s'' k.
Proof.
  intros Er Eb Es El Ev [A1 A2 A3 A4 A5].
  constructor; unfold own_inc, left_inv, lk in *; rewrite ?Er, ?Es, ?El, ?Ev; auto.
  intros a Ha. apply (holds_same s' s'' a Er Eb) in Ha. exact (A1 a Ha).
Qed.

(* [s1] is [s], or [s] with the placeholder of an unknown member inserted *)
Lemma recorded_echo s {s1 k r r' m ts evs} : recorded c s1 k r r' m ts evs -> leaving s1 = leaving s -> echo_call s k ->
  (forall a, rst r' = Alive /\ rec_claim (call_name k) r' = a \/ m = BAlive (a_inc a) (a_name a) (a_addr a) (a_meta a) (a_vsn a) ->
     call_claim k = Some a /\ rec_claim (call_name k) r' = a) /\
  (call_name k = self c -> lk s (self c) = Some r -> (rinc r <= linc s)%N ->
     (same_fields r r' \/ announces k = true /\ call_claim k = Some (rec_claim (self c) r')) /\
     (rinc r' <= linc s)%N /\ (leaving s = true -> dead_or_left (rst r') = true)).
Proof.
  intros Hr Lv He.
  destruct Hr as [inc name from from' r _ D _ _ | inc name from r t _ _ Ns _ _ | inc name addr meta vsn b r LS _ _ Hb];
    cbn [call_name call_claim announces echo_call rst rinc] in *.
  - split; [intros a [[X _]|X]; [destruct (N.eqb name from')|]; discriminate|].
    intros E L Le. rewrite (He E r L D). split; [left; repeat split | split; [exact Le | destruct (N.eqb name from'); reflexivity]].
  - split; [intros a [[X _]|X]; discriminate | contradiction].
  - destruct He as [Hl He]. rewrite (vsn6 _ _ Hl). split.
    + intros a [[_ <-]|X]; [auto|]. destruct a. inversion X. auto.
    + intros E L _. rewrite (Hb E) in *. subst name. rewrite Lv, N.eqb_refl, andb_true_r in LS.
      split; [right; auto|]. split; [exact (He eq_refl r L) | congruence].
Qed.

Lemma commit_agrees s {s1 k r r' m ts evs} : own_inc s -> echo_call s k ->
  recorded c s1 k r r' m ts evs -> leaving s1 = leaving s -> (call_name k = self c -> lk s (self c) = Some r) ->
  agrees s (commit s (call_name k) r' m ts) k.
Proof.
  intros Hoi He Hr Lv Hs. destruct (recorded_echo s Hr Lv He) as [Fa Fb].
  assert (Own : forall r0, lk (commit s (call_name k) r' m ts) (self c) = Some r0 ->
            lk s (self c) = Some r0 \/ call_name k = self c /\ r0 = r').
  { intro r0. rewrite lk_commit. destruct (N.eqb_spec (self c) (call_name k)); [intro X; inversion X|]; auto. }
  constructor.
  - intros a Ha. apply holds_commit in Ha. destruct Ha as [H|H]; [left; exact H | right].
    destruct (Fa a H) as [E1 E2]. split; [exact E1|]. exists r'. rewrite <- E2 at 1 2. cbn [rec_claim a_name].
    rewrite lk_commit, N.eqb_refl. auto.
  - reflexivity.
  - intros r0 L0. rewrite lk_commit. destruct (N.eqb_spec (self c) (call_name k)) as [E|_].
    + symmetry in E. assert (r0 = r) by (specialize (Hs E); congruence). subst r0. exists r'. split; [reflexivity|].
      apply (Fb E L0 (Hoi r L0)).
    + exists r0. split; [exact L0 | left; apply same_fields_refl].
  - intros r0 L0. destruct (Own r0 L0) as [L|[E ->]]; [exact (Hoi r0 L)|].
    pose proof (Hs E) as L. apply (Fb E L (Hoi r L)).
  - intros Hli Lv' r0 L0. destruct (Own r0 L0) as [L|[E ->]]; [exact (Hli Lv' r0 L)|].
    pose proof (Hs E) as L. apply (Fb E L (Hoi r L)), Lv'.
Qed.

Lemma do_call_agree s k : clean dep c s -> own_inc s -> quiet_call dep c s k -> echo_call s k -> agrees s (fst (do_call c s k)) k.
Proof.
  intros Hc Hoi Hq He.
  assert (Same : agrees s s k).
  { constructor; auto. intros r L. exists r. split; [exact L | left; apply same_fields_refl]. }
  destruct (call_outcome c s k) as [Es _ | inc name addr meta vsn b -> Ln _ _ | me Hn FL Hb L Ge Es _ | r r' m ts L Hr Es
                                   | inc name from r sA -> | inc name from r sA ->]; try contradiction.
  - rewrite (clean_touch dep c s _ Hc) in Es. assert (E : fst (do_call c s k) = s) by tauto. rewrite E. exact Same.
  - assert (Ns : name <> self c) by (intros ->; destruct (cl_self _ _ _ Hc); congruence).
    destruct (alive_unknown_cases c s inc name addr meta vsn b Ln Ns (proj1 Hq)) as [E|[r' [m [ts [evs [Hr E]]]]]];
      rewrite E; cbn [fst]; [exact Same|].
    apply (agrees_same s (commit s name r' m ts)); try reflexivity; [apply recs_commit_place, Ln|].
    apply (commit_agrees s Hoi He Hr eq_refl). contradiction.
  - (* about the node itself: an echo, by hypothesis *)
    rewrite Hfixed in FL. cbn [andb] in FL.
    destruct k as [i n a mt v b| |i n f]; cbn [quiet_call echo_call call_name call_inc do_call] in *;
      [subst b n | contradiction | destruct Hq as [_ [_ Lv]]; specialize (Lv Hn); congruence].
    destruct (proj2 He eq_refl me L) as [Lt|[Ei [Ea [Em Ev]]]]; cbn [a_inc a_addr a_meta a_vsn] in *; [lia|]. subst.
    destruct (alive_own_echo c s me L) as [E|E]; rewrite E, ?(clean_touch dep c s _ Hc); exact Same.
  - rewrite Es. apply (commit_agrees s Hoi He Hr eq_refl). intros <-. exact L.
Qed.

(* a claim handed over: what [benign] and [agreeable] say of it *)
Lemma fed_echo s o k : benign dep c s o -> left_inv s -> agreeable s o -> op_call c o = Some k ->
  echo_call s k /\ op_claim o = call_claim k /\ announces k = false.
Proof.
  intros [_ Hb] Hli Hag Ek.
  (* a departure notice about the node itself finds it gone already *)
  assert (Departed : forall inc name, (name = self c -> leaving s = true) -> echo_call s (CDead inc name name)).
  { intros inc name Lv E r L D. rewrite (Hli (Lv E) r L) in D. discriminate. }
  destruct o; cbn in Ek, Hb, Hag; try discriminate; try contradiction.
  - inversion Ek. destruct Hb as [-> _]. auto.
  - destruct (_ && _); inversion Ek. auto.
  - inversion Ek. destruct Hb as [-> [_ Lv]]. auto.
  - destruct rs; try contradiction; inversion Ek; cbn [merge_call]; [|destruct Hb]; auto.
Qed.

Lemma fed_step s s' k o : agrees s s' k -> op_claim o = call_claim k -> announces k = false -> left_inv s' ->
  agree_step s s' o.
Proof.
  intros [A1 A2 A3 A4 _] Ec Eb Hl. constructor; auto.
  - intros a Ha. destruct (A1 a Ha) as [H|[H _]]; [auto | right; left; congruence].
  - intros r L. destruct (A3 r L) as [r' [L' [Sf|[B _]]]]; [eauto | congruence].
Qed.

(* the wait that ends Leave and UpdateNode: no timer runs, so only the clock moves *)
Lemma agree_wait s s1 k w o : clean dep c s1 -> quiet_call dep c s1 k -> agree_step s (fst (do_call c s1 k)) o ->
  agree_step s (fst (wait_bcast c w (do_call c s1 k))) o.
Proof.
  intros Hc Hq A. destruct (do_call_clean dep c Hfixed s1 k Hc Hq) as [P _]. destruct (do_call c s1 k) as [s' e]. cbn [fst] in *.
  unfold wait_bcast. destruct (any_alive_other c s'); [|exact A].
  rewrite (fire_due_clean c _ _ s' e (cl_timers _ _ _ P)).
  (* only the clock differs, which [agree_step] does not read: its fields convert *)
  destruct A as [A1 A2 A3 A4 A5]. constructor; assumption.
Qed.

Theorem step_agree s o :
  clean dep c s -> own_inc s -> left_inv s -> benign dep c s o -> agreeable s o ->
  agree_step s (fst (step c s o)) o.
Proof.
  intros Hc Hoi Hli Hb Hag.
  assert (Same : agree_step s s o).
  { constructor; auto. intros r L. exists r. split; [exact L | left; apply same_fields_refl]. }
  destruct (op_call c o) as [k|] eqn:Ek.
  - rewrite (step_op_call c s o k Ek). destruct (fed_echo s o k Hb Hli Hag Ek) as [He [Ec Eb]].
    pose proof (do_call_agree s k Hc Hoi (benign_quiet dep c s o k Hb Ek) He) as A.
    apply (fed_step s _ k); auto. apply A, Hli.
  - destruct Hb as [Bl Hb]. destruct (cl_self _ _ _ Hc) as [r0 L0].
    destruct o; try discriminate Ek; try contradiction; cbn [step].
    + cbn [op_call] in Ek. destruct (is_allowed c src); [destruct (is_allowed c addr); [discriminate|]|]; exact Same.
    + rewrite (fire_due_clean c _ _ s [] (cl_timers _ _ _ Hc)). destruct Same as [A1 A2 A3 A4 A5]. constructor; assumption.
    + (* reaping never removes the node's own record *)
      assert (E : lk (do_reap c s) (self c) = lk s (self c)).
      { rewrite L0. apply reap_keeps_self; assumption. }
      cbn [fst]. constructor; unfold own_inc, left_inv; rewrite ?E; auto.
      * intros a [[r [Hin A]]|Hq]; [left; left; exists r; apply filter_In in Hin; tauto | left; right; exact Hq].
      * intros r L. exists r. split; [exact L | left; apply same_fields_refl].
    + (* Leave: the flag, then the node's own departure at the incarnation of its record *)
      destruct (leaving s) eqn:Lv; [exact Same|].
      change (alookup (self c) (recs (set_leaving s))) with (lk s (self c)). rewrite L0.
      set (s1 := set_leaving s). set (k := CDead (rinc r0) (self c) (self c)).
      assert (Hc1 : clean dep c s1) by (apply (clean_same dep c s); auto).
      assert (Hq : quiet_call dep c s1 k) by (cbn; auto).
      assert (He : echo_call s1 k) by (intros _ r L _; change (lk s (self c) = Some r) in L; congruence).
      assert (A : agree_step s1 (fst (wait_bcast c w (do_call c s1 k))) (OLeave w)).
      { apply agree_wait; auto. apply (fed_step s1 _ k); auto; [apply do_call_agree; auto|].
        intros _ r L. destruct (dead_claim_kills c s1 (rinc r0) (self c) (self c) r0 L0 (N.le_refl _) (fun _ => eq_refl)) as [r' [L' D]].
        unfold k, do_call in L. congruence. }
      (* of the state it starts from [agree_step] reads what is held, the score and the counter, not the flag *)
      destruct A as [A1 A2 A3 A4 A5]. constructor; assumption.
    + (* UpdateNode: the counter, then the node's own announcement *)
      change (alookup (self c) (recs (bump_linc s))) with (lk s (self c)). rewrite L0.
      set (s1 := bump_linc s). set (k := CAlive (linc s1) (self c) (raddr r0) meta (self_vsn c) true).
      pose proof (linc_bump s Bl) as El. fold s1 in El.
      assert (Hc1 : clean dep c s1) by (apply (clean_same dep c s); auto; apply Hc).
      assert (Hq : quiet_call dep c s1 k) by (unfold k; cbn [quiet_call]; rewrite El; split; [lia | discriminate]).
      apply (agree_wait s s1 k); auto.
      destruct (do_call_agree s1 k Hc1) as [A1 A2 A3 A4 A5]; auto.
      { intros r L. apply Hoi in L. lia. }
      { split; [exact Hvsn | intros _ r _; apply N.le_refl]. }
      cbn [call_claim k] in A1, A3. rewrite El in A1, A3. constructor; auto.
      * intros a Ha. destruct (A1 a Ha) as [H|[H [r' [L' E']]]]; [auto|]. inversion H. subst a. cbn [a_name] in *.
        right. right. exists meta, w, r0, r'. auto.
      * intros r L. destruct (A3 r L) as [r' [L' [Sf|[_ E']]]]; [eauto|]. exists r'. split; [exact L'|]. right. exists meta, w.
        assert (r = r0) by (change (lk s (self c) = Some r) in L; congruence). subst r.
        assert (E : rec_claim (self c) r' = mkA (self c) (linc s + 1) (raddr r0) meta (self_vsn c)) by congruence.
        split; [reflexivity|]. split; [|exact E]. apply (f_equal a_inc) in E. cbn in E. apply Hoi in L0. lia.
Qed.
End Node.
