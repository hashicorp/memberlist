From VF Require Import Base VerifyProto.
Local Open Scope N_scope.

Definition byte_ok (x : N) : Prop := x <= 255.

(* one round of either accumulation loop, on a node that counts *)
Definition acc_range (a r : N * N * N * N) : N * N * N * N :=
  let '(a1, a2, a3, a4) := a in let '(r1, r2, r3, r4) := r in (N.max a1 r1, N.min a2 r2, N.max a3 r3, N.min a4 r4).

(* a loop that skips some elements and feeds a function of the others to [f] *)
Lemma fold_left_filter_map {A B C} (f : A -> C -> A) (h : A -> B -> A) (p : B -> bool) (g : B -> C) :
  (forall a x, h a x = if p x then f a (g x) else a) ->
  forall l a, fold_left h l a = fold_left f (map g (filter p l)) a.
Proof.
  intros E l. induction l as [|x l IH]; intro a; cbn [fold_left filter]; [reflexivity|].
  rewrite E, IH. destruct (p x); reflexivity.
Qed.

Lemma fold_ranges remote local a :
  fold_left acc_local local (fold_left acc_remote remote a) = fold_left acc_range (ranges remote local) a.
Proof.
  unfold ranges. rewrite fold_left_app.
  rewrite <- (fold_left_filter_map acc_range acc_remote), <- (fold_left_filter_map acc_range acc_local); [reflexivity| |].
  - intros [[[a1 a2] a3] a4] n. unfold acc_local. destruct (ln_alive n); reflexivity.
  - intros [[[a1 a2] a3] a4] r. unfold acc_remote. destruct (rn_alive r), (length (rn_vsn r) <? 5)%nat; reflexivity.
Qed.

Lemma in_range_iff a1 a2 a3 a4 pc dc :
  in_range (a1, a2, a3, a4) pc dc = true <-> (a1 <= pc /\ pc <= a2) /\ a3 <= dc /\ dc <= a4.
Proof. unfold in_range. rewrite !andb_true_iff, !N.leb_le. tauto. Qed.

(* above a max is above both, below a min is below both: the accumulator is the intersection *)
Lemma in_range_acc a r pc dc :
  in_range (acc_range a r) pc dc = true <-> in_range a pc dc = true /\ in_range r pc dc = true.
Proof.
  destruct a as [[[a1 a2] a3] a4], r as [[[r1 r2] r3] r4]. cbn [acc_range].
  rewrite !in_range_iff, !N.max_lub_iff, !N.min_glb_iff. split.
  - intros [[[A1 R1] [A2 R2]] [[A3 R3] [A4 R4]]]. auto 7.
  - intros [[[A1 A2] [A3 A4]] [[R1 R2] [R3 R4]]]. auto 7.
Qed.

Lemma in_range_fold rs a pc dc :
  in_range (fold_left acc_range rs a) pc dc = true <-> forall r, In r (a :: rs) -> in_range r pc dc = true.
Proof.
  rewrite <- Forall_forall. revert a. induction rs as [|r rs IH]; intro a; cbn [fold_left].
  - rewrite Forall_cons_iff, Forall_nil_iff. tauto.
  - rewrite IH, !Forall_cons_iff, in_range_acc. tauto.
Qed.

(* the check as written tests every speaker against the accumulated ranges; the initial accumulator
   counts as one more range *)
Theorem verify_iff remote local :
  verify_protocol remote local = true <->
  forall s, In s (speakers remote local) ->
  forall r, In r ((0, 255, 0, 255) :: ranges remote local) -> in_range r (fst s) (snd s) = true.
Proof.
  unfold verify_protocol, speakers. rewrite fold_ranges. setoid_rewrite <- in_range_fold.
  set (a := fold_left acc_range _ _). clearbody a.
  rewrite <- Forall_forall, andb_true_iff, Forall_app, !Forall_map, !forallb_forall, !Forall_forall.
  split; intros [H1 H2]; (split; [|exact H2]); intros r Hr; specialize (H1 r Hr); destruct (remote_cur r); exact H1.
Qed.

(* C09: verifyProtocol accepts iff every speaker (all remote entries, current versions taken as 0
   when the vector is short; all local nodes) lies within every ALIVE node's advertised protocol
   and delegate ranges; versions are bytes *)
Theorem verify_spec remote local :
  (forall s, In s (speakers remote local) -> byte_ok (fst s) /\ byte_ok (snd s)) ->
  (verify_protocol remote local = true <->
   forall s, In s (speakers remote local) -> forall r, In r (ranges remote local) -> in_range r (fst s) (snd s) = true).
Proof.
  intro Hb. rewrite verify_iff. split; intros H s Hs r Hr.
  - apply (H s Hs). right. exact Hr.
  - destruct Hr as [<-|Hr]; [|exact (H s Hs r Hr)].
    apply in_range_iff. destruct (Hb s Hs). unfold byte_ok in *. lia.
Qed.
