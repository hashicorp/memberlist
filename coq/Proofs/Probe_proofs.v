From VF Require Import Base Probe.
Local Open Scope Z_scope.

(* the score moves by delta and is clamped to [0, max-1] *)
Lemma apply_delta_clamp mx score delta : 1 <= mx ->
  apply_delta mx score delta = Z.max 0 (Z.min (mx - 1) (score + delta)).
Proof.
  intro H. unfold apply_delta. destruct (Z.ltb_spec (score + delta) 0); [lia|].
  destruct (Z.ltb_spec (mx - 1) (score + delta)); lia.
Qed.

(* the health score always stays within [0, max-1] *)
Theorem score_range mx score delta : 1 <= mx -> 0 <= apply_delta mx score delta <= mx - 1.
Proof. intro H. rewrite apply_delta_clamp by exact H. lia. Qed.

(* it rises only with a positive delta and falls only with a negative one *)
Theorem score_direction mx score delta : 0 <= score <= mx - 1 ->
  (score < apply_delta mx score delta -> 0 < delta) /\ (apply_delta mx score delta < score -> delta < 0).
Proof. intro H. rewrite apply_delta_clamp by lia. lia. Qed.

(* the deltas a probe can produce: -1 only when answered after a ping that went out; positive only
   when it failed *)
Theorem delta_sign pi :
  (probe_delta pi < 0 -> probe_outcome pi = Answered /\ p_send pi = 0) /\
  (0 < probe_delta pi -> probe_outcome pi = Failed).
Proof.
  unfold probe_delta. destruct (probe_outcome pi); split; intro H; try lia; auto.
  - destruct (Z.eqb_spec (p_send pi) 0); [auto | lia].
  - destruct (Z.eqb_spec (p_send pi) 0); lia.
  - destruct (0 <? p_expected_nacks pi); lia.
Qed.

Lemma matching_ack_iff pi d :
  matching_ack_before pi d = true <-> exists t, In (Ack (p_seq pi) t) (p_arrivals pi) /\ t < d.
Proof.
  unfold matching_ack_before. rewrite existsb_exists. split.
  - intros [[s t|s t] [Hin Ha]]; [|discriminate]. apply andb_true_iff in Ha as [E L].
    apply Z.eqb_eq in E. apply Z.ltb_lt in L. subst. eauto.
  - intros [t [Hin L]]. exists (Ack (p_seq pi) t). rewrite Z.eqb_refl. apply Z.ltb_lt in L. auto.
Qed.

(* answered iff an ack carrying the probe's OWN sequence number arrives strictly before the
   deadline, or the TCP fallback round-trips a matching ack in time *)
Theorem answered_iff pi : p_send pi <> 2 ->
  (probe_outcome pi = Answered <->
   (exists t, In (Ack (p_seq pi) t) (p_arrivals pi) /\ t < p_interval pi) \/ tcp_contact pi = true).
Proof.
  intro Hs. unfold probe_outcome. destruct (Z.eqb_spec (p_send pi) 2); [contradiction|].
  rewrite <- matching_ack_iff, <- orb_true_iff. destruct (_ || _); split; congruence.
Qed.

(* elements that a test rejects count for nothing in a search or a selection *)
Lemma existsb_none {A} (f : A -> bool) l : Forall (fun a => f a = false) l -> existsb f l = false.
Proof. induction 1 as [|a l Ha _ IH]; cbn; [|rewrite Ha]; auto. Qed.

Lemma filter_none {A} (f : A -> bool) l : Forall (fun a => f a = false) l -> filter f l = [].
Proof. induction 1 as [|a l Ha _ IH]; cbn; [|rewrite Ha]; auto. Qed.

(* acks / nacks carrying any other sequence number do not change the verdict or the delta *)
Theorem foreign_arrivals_irrelevant pi extra :
  Forall (fun a => match a with Ack s _ | Nack s _ => s <> p_seq pi end) extra ->
  let pi' := mkPI (p_seq pi) (p_interval pi) (p_timeout pi) (p_send pi) (p_arrivals pi ++ extra)
                  (p_expected_nacks pi) (p_tcp pi) (p_tcp_enabled pi) in
  probe_outcome pi' = probe_outcome pi /\ probe_delta pi' = probe_delta pi.
Proof.
  intros HF pi'.
  assert (A : forall d, matching_ack_before pi' d = matching_ack_before pi d
                        /\ nacks_before pi' d = nacks_before pi d).
  { intro d. unfold matching_ack_before, nacks_before, pi'. cbn [p_seq p_arrivals].
    rewrite existsb_app, filter_app, (existsb_none _ extra), (filter_none _ extra), orb_false_r, app_nil_r; [auto| |].
    all: eapply Forall_impl; [|exact HF]; intros [s t|s t] Hs; trivial;
         apply Z.eqb_neq in Hs; rewrite Hs; reflexivity. }
  unfold probe_delta, probe_outcome, tcp_contact, phase2. rewrite !(proj1 (A _)), !(proj2 (A _)). auto.
Qed.

(* pending-probe records: an ack for an unknown or expired number finds nothing; every record
   is gone once its deadline has passed *)
Theorem foreign_ack_noop h seq now : (forall e, In e h -> fst e <> seq) -> h_ack h seq now = (false, h_advance h now).
Proof.
  intro H. unfold h_ack. rewrite existsb_none; [reflexivity|]. apply Forall_forall. intros e He.
  apply filter_In in He as [He _]. apply Z.eqb_neq, H, He.
Qed.

Theorem expired_ack_noop h seq now : (forall e, In e h -> fst e = seq -> snd e <= now) -> fst (h_ack h seq now) = false.
Proof.
  intro H. unfold h_ack. rewrite existsb_none; [reflexivity|]. apply Forall_forall. intros e He.
  apply filter_In in He as [He L]. apply Z.ltb_lt in L. apply Z.eqb_neq. intro E. specialize (H e He E). lia.
Qed.

Theorem handlers_reaped h now : (forall e, In e h -> snd e <= now) -> h_advance h now = [].
Proof. intro H. apply filter_none, Forall_forall. intros e He. apply Z.ltb_ge, H, He. Qed.

Theorem ack_consumes_record h seq now : fst (h_ack h seq now) = true ->
  forall e, In e (snd (h_ack h seq now)) -> fst e <> seq.
Proof.
  unfold h_ack. destruct (existsb _ (h_advance h now)); [|discriminate]. intros _ e Hin.
  apply filter_In in Hin as [_ Hn]. apply negb_true_iff, Z.eqb_neq in Hn. exact Hn.
Qed.

(* relay: at most one ack is relayed and at most one nack is sent, never both; a nack goes out iff
   one was asked for and no matching ack came in time *)
Theorem relay_exclusive ri :
  let '(a, n) := relay_result ri in
  0 <= a <= 1 /\ 0 <= n <= 1 /\ a + n <= 1 /\ (n = 1 <-> (r_want_nack ri = true /\ a = 0)).
Proof.
  unfold relay_result. destruct (existsb _ (r_arrivals ri)), (r_want_nack ri); cbn; intuition (discriminate || lia).
Qed.

(* C03: a crashed target sends nothing, so no acknowledgement with the probe's own sequence number ever
   arrives and a TCP fallback finds nobody: the probe fails (and the node suspects the target), unless the
   ping could not even be handed to the network for a local reason *)
Lemma silent_target_fails pi :
  p_send pi <> 2 -> p_tcp pi = None ->
  Forall (fun a => match a with Ack s _ => s <> p_seq pi | Nack _ _ => True end) (p_arrivals pi) ->
  probe_outcome pi = Failed.
Proof.
  (* no arrival passes the search for a matching ack, and there is no TCP contact *)
  intros Hs Ht Hf. unfold probe_outcome, tcp_contact, matching_ack_before.
  destruct (Z.eqb_spec (p_send pi) 2); [contradiction|]. rewrite Ht, andb_false_r, orb_false_r, existsb_none; [reflexivity|].
  eapply Forall_impl; [|exact Hf]. intros [s t|s t] H; [apply Z.eqb_neq in H; rewrite H|]; reflexivity.
Qed.
