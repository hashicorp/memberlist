(* Below_proofs.v — C05, one node: no claim a node holds or queues carries an incarnation above
   what the member it is about has announced.  [P n inc] says "inc is not above what the member
   named n has announced" for the other members; for the node itself the bound is its own counter. *)
From VF Require Import Base Core Core_lemmas Core_inv.
Local Open Scope Z_scope.

Definition mname (m : bmsg) : N := match m with BAlive _ n _ _ _ | BSuspect _ n _ | BDead _ n _ => n end.
Definition minc (m : bmsg) : N := match m with BAlive i _ _ _ _ | BSuspect i _ _ | BDead i _ _ => i end.

Section Node.
Variable c : cfg.
Hypothesis Hfixed : fixed c = true.
Variable P : N -> N -> Prop.
Hypothesis P0 : forall n, P n 0%N.   (* the placeholder of a member not yet known is at incarnation 0 *)

(* a claim about the node itself is within its counter, or within what P allows (what it announced in
   an earlier life, when the cluster model lets members restart) *)
Definition ok_claim (l : N) (n inc : N) : Prop := if N.eqb n (self c) then (inc <= l)%N \/ P n inc else P n inc.

Record bounded (s : nstate) : Prop := mkBd {
  bd_recs : forall n r, In (n, r) (recs s) -> ok_claim (linc s) n (rinc r);
  bd_bq : forall k m, In (k, m) (bq s) -> ok_claim (linc s) (mname m) (minc m) }.

Lemma ok_claim_le l l' n i : (l <= l')%N -> ok_claim l n i -> ok_claim l' n i.
Proof. unfold ok_claim. destruct (N.eqb n (self c)); [intros L [H|H]; [left; lia | right; exact H] | auto]. Qed.

Lemma bounded_frame s s' : recs s' = recs s -> bq s' = bq s -> (linc s <= linc s')%N -> bounded s -> bounded s'.
Proof.
  intros E1 E2 Hl [H1 H2]. constructor.
  - intros n r Hin. rewrite E1 in Hin. eapply ok_claim_le; [exact Hl | eapply H1; exact Hin].
  - intros k m Hin. rewrite E2 in Hin. eapply ok_claim_le; [exact Hl | eapply H2; exact Hin].
Qed.

Lemma bounded_set_bq s k m : bounded s -> ok_claim (linc s) (mname m) (minc m) -> bounded (set_bq s k m).
Proof.
  intros [H1 H2] Hm. constructor; cbn [recs bq linc set_bq].
  - exact H1.
  - intros k' m' Hin. apply In_aset in Hin. destruct Hin as [E|Hin]; [inversion E; subst; exact Hm | eapply H2; exact Hin].
Qed.

Lemma bounded_set_rec s n r : bounded s -> ok_claim (linc s) n (rinc r) -> bounded (set_rec s n r).
Proof.
  intros [H1 H2] Hr. constructor; cbn [recs bq linc set_rec].
  - intros n' r' Hin. apply In_aset in Hin. destruct Hin as [E|Hin]; [inversion E; subst; exact Hr | eapply H1; exact Hin].
  - exact H2.
Qed.

Lemma bounded_set_timers s ts : bounded s -> bounded (set_timers s ts).
Proof. apply bounded_frame; reflexivity || cbn; lia. Qed.

Lemma bounded_refute s me acc :
  bounded s -> below_max acc -> below_max (linc s) ->
  bounded (refute c s me acc) /\ (linc s <= linc (refute c s me acc))%N.
Proof.
  intros [H1 H2] Ba Bl. pose proof (refute_outranks s acc Ba Bl) as [_ Hgt].
  unfold refute. cbv zeta. fold (refute_inc s acc). cbn [linc set_bq].
  split; [|lia].
  apply bounded_set_bq.
  - constructor; cbn [recs bq linc].
    + intros n r Hin. apply In_aset in Hin. destruct Hin as [E|Hin].
      * inversion E; subst. unfold ok_claim. rewrite N.eqb_refl. left. cbn. lia.
      * eapply ok_claim_le; [|eapply H1; exact Hin]. lia.
    + intros k m Hin. eapply ok_claim_le; [|eapply H2; exact Hin]. lia.
  - cbn [linc mname minc]. unfold ok_claim. rewrite N.eqb_refl. left. lia.
Qed.

Lemma recorded_claim {s k r r' m ts evs} : recorded c s k r r' m ts evs ->
  rinc r' = call_inc k /\ mname m = call_name k /\ minc m = call_inc k.
Proof. destruct 1; auto. Qed.

Lemma outcome_bounded s k s' evs : outcome c s k s' evs ->
  bounded s -> ok_claim (linc s) (call_name k) (call_inc k) -> below_max (call_inc k) -> all_below s ->
  bounded s' /\ (linc s <= linc s')%N.
Proof.
  induction 1 as [s k s' evs [->| ->] _ | s k s' evs inc name addr meta vsn b -> Ln _ _ IH | s k s' evs me _ _ _ _ _ -> _
                 | s k s' evs r r' m ts L Hr -> | s k s' evs inc name from r sA -> _ _ _ [ts [-> _]] -> _
                 | s k s' evs inc name from r sA -> L _ _ [ts [-> _]] _ _ IH]; intros Hb Hc Bi HB; pose proof HB as [Bl B2].
  - split; [exact Hb | lia].
  - split; [apply bounded_set_timers, Hb | cbn; lia].
  - apply IH; auto using place_below.
    destruct Hb as [H1 H2]. constructor; [|exact H2].
    intros n r Hin. cbn [place recs] in Hin. apply in_app_or in Hin. destruct Hin as [Hin|[E|[]]]; [apply H1, Hin|].
    inversion E; subst. unfold ok_claim; cbn. destruct (N.eqb n (self c)); [left; lia | apply P0].
  - apply (bounded_refute (touch s (self c))); [apply bounded_set_timers, Hb | exact Bi | exact Bl].
  - destruct (recorded_claim Hr) as [Ei [En Em]]. split; [|cbn; lia].
    apply bounded_set_timers, bounded_set_rec; [apply bounded_set_bq; [exact Hb|]; rewrite En, Em | cbn [linc set_bq]; rewrite Ei]; exact Hc.
  - split; [|cbn; lia]. apply bounded_set_bq; [apply bounded_set_timers, Hb | exact Hc].
  - assert (Hb1 : bounded (set_bq (set_timers s ts) (kname name) (BSuspect inc name from))).
    { apply bounded_set_bq; [apply bounded_set_timers, Hb | exact Hc]. }
    apply IH; [exact Hb1 | apply (bd_recs _ Hb1), alookup_some_in, L | eapply B2, L | exact HB].
Qed.

Lemma do_call_bounded s k :
  bounded s -> call_ok c s k -> ok_claim (linc s) (call_name k) (call_inc k) ->
  bounded (fst (do_call c s k)) /\ (linc s <= linc (fst (do_call c s k)))%N.
Proof. intros Hb [HB [Bi _]] Hc. exact (outcome_bounded s k _ _ (call_outcome c s k) Hb Hc Bi HB). Qed.

Lemma do_reap_bounded s : bounded s -> bounded (do_reap c s).
Proof.
  intros [H1 H2]. unfold do_reap. constructor; cbn [recs bq linc].
  - intros n r Hin. apply filter_In in Hin. apply H1. apply Hin.
  - exact H2.
Qed.

Definition op_claim_ok (s : nstate) (o : op) : Prop :=
  match o with
  | OAlive inc name _ _ _ _ | OHandleAlive _ inc name _ _ _ | OSuspect inc name _ | ODead inc name _
  | OMerge _ inc name _ _ _ => ok_claim (linc s) name inc
  | OLeaveCommit inc => (inc <= linc s)%N
  | _ => True
  end.

Lemma op_call_claim s o k : op_claim_ok s o -> op_call c o = Some k -> ok_claim (linc s) (call_name k) (call_inc k).
Proof.
  intros Hc Ek. destruct o; cbn in Ek; try discriminate; try (inversion Ek; exact Hc).
  - destruct (is_allowed c src && is_allowed c addr); inversion Ek. exact Hc.
  - inversion Ek. destruct rs; exact Hc.
  - inversion Ek. unfold ok_claim. cbn. rewrite N.eqb_refl. left. exact Hc.
Qed.

(* what the node claims of its own accord is what it holds already, or its own counter *)
Lemma own_call_claim s k : bounded s -> own_call c s k -> ok_claim (linc s) (call_name k) (call_inc k).
Proof.
  intros Hb [t r L _ | r _ L | r meta _]; cbn [call_name call_inc];
    try (apply (bd_recs s Hb), alookup_some_in, L).
  unfold ok_claim. rewrite N.eqb_refl. left. lia.
Qed.

(* C05 (one node): every operation keeps every claim within the announced incarnations, and the
   node's own counter never goes down *)
Theorem step_bounded s o :
  FInv c s -> op_ok c s o -> bounded s -> op_claim_ok s o ->
  bounded (fst (step c s o)) /\ (linc s <= linc (fst (step c s o)))%N.
Proof.
  intros HF Hok Hb Hc.
  apply (step_ind c Hfixed (fun s1 _ => bounded s1 /\ (linc s <= linc s1)%N)); auto; try (split; [exact Hb | lia]).
  - intros k Ek Hk. apply do_call_bounded; [exact Hb | exact Hk | eapply op_call_claim; eassumption].
  - intros _. split; [apply do_reap_bounded; exact Hb | cbn; lia].
  - intros s1 _ k G Hk Ok [Hb1 Hl].
    destruct (do_call_bounded s1 k Hb1 Ok (own_call_claim s1 k Hb1 Hk)). split; [assumption | lia].
  - intros s1 _ s2 G Hi [Hb1 Hl]. assert (linc s1 <= linc s2)%N by (destruct Hi; try (cbn; lia); rewrite linc_bump by apply G; lia).
    split; [apply (bounded_frame s1); auto; destruct Hi; reflexivity | lia].
Qed.
End Node.
