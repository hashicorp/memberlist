(* Heal_proofs.v — anti-entropy heals a pair: whatever two running nodes hold about each other
   (nothing, a stale incarnation, Suspect, Dead, Left, an incarnation from a future the member never
   reached, stale metadata), two complete push/pull exchanges between them leave each listing the other
   alive with the other's current address and metadata.  No cluster invariant is needed.  In a merged state
   list only the entry about a name acts on the record of that name; what that entry does is given by the
   equations of a claim about the running node itself and of an alive claim about another member. *)
From VF Require Import Base Core Core_lemmas Core_inv Core_props Cluster Exchange.
Local Open Scope Z_scope.

Definition ent (p : N * rec) : pmsg :=
  PS (rst (snd p)) (rinc (snd p)) (fst p) (raddr (snd p)) (rmeta (snd p)) (rvsn (snd p)).

Lemma snapshot_ent s : snapshot s = map ent (recs s).
Proof. reflexivity. Qed.

Lemma merge_all_cons c s p snap : merge_all c s (p :: snap) = merge_all c (fst (step c s (op_of p))) snap.
Proof. reflexivity. Qed.

Lemma merge_all_app c s snap1 snap2 : merge_all c s (snap1 ++ snap2) = merge_all c (merge_all c s snap1) snap2.
Proof. apply fold_left_app. Qed.

Definition good_listing (r' : rec) (a m : N) : Prop := rst r' = Alive /\ raddr r' = a /\ rmeta r' = m.

Lemma listed_good s n r a m : lk s n = Some r -> good_listing r a m -> listed s n = Some (a, m).
Proof. intros L [A [<- <-]]. unfold listed. fold (lk s n). rewrite L, A. reflexivity. Qed.

Section OneNode.
Variable c : cfg.

Lemma do_merge_keeps X s rs inc name addr meta vsn :
  name <> X -> keeps c X s (fst (do_merge c s rs inc name addr meta vsn)).
Proof.
  intro Hn. rewrite do_merge_call. eapply outcome_keeps; [apply call_outcome|]. rewrite merge_call_name. exact Hn.
Qed.

Lemma merge_all_keys l : forall s, keys_ok s -> keys_ok (merge_all c s (map ent l)).
Proof.
  induction l as [|p l IH]; intros s K; [exact K|]. apply IH. cbn [ent op_of step].
  rewrite do_merge_call. apply do_call_keys, K.
Qed.

Lemma merge_all_keeps X l : ~ In X (map fst l) -> forall s, keeps c X s (merge_all c s (map ent l)).
Proof.
  induction l as [|[n q] l IH]; intros NI s; [apply keeps_refl|]. cbn [map fst In] in NI.
  eapply keeps_trans; [|apply IH; tauto]. apply do_merge_keeps. tauto.
Qed.

(* names in a state list are distinct: before and after the entry about X nothing acts on what is held of X *)
Lemma merge_all_at l X q : NoDup (map fst l) -> In (X, q) l -> forall s,
  exists s0, keeps c X s s0 /\
    keeps c X (fst (do_merge c s0 (rst q) (rinc q) X (raddr q) (rmeta q) (rvsn q))) (merge_all c s (map ent l)).
Proof.
  intros ND Hin s. apply in_split in Hin. destruct Hin as [l1 [l2 ->]].
  rewrite map_app in ND. apply NoDup_remove_2 in ND. rewrite in_app_iff in ND.
  exists (merge_all c s (map ent l1)). split; [apply merge_all_keeps; tauto|].
  rewrite map_app, merge_all_app. cbn [map]. rewrite merge_all_cons. apply merge_all_keeps. tauto.
Qed.

(* the node whose state is being reported (x) *)
Definition SelfGood (s : nstate) (r : rec) : Prop :=
  leaving s = false /\ lk s (self c) = Some r /\ rst r = Alive /\ no_live (self c) (timers s).

Lemma Inv_SelfGood s r : Inv c s -> leaving s = false -> lk s (self c) = Some r -> SelfGood s r.
Proof.
  intros HI Lv L. destruct (inv_self _ _ HI Lv) as [r0 [L0 [A _]]]. assert (r0 = r) by congruence. subst r0.
  unfold SelfGood. spl; auto. eapply self_no_live; eassumption.
Qed.

Lemma SelfGood_keeps s r s' : SelfGood s r -> keeps c (self c) s s' -> SelfGood s' r /\ linc s' = linc s.
Proof.
  intros [Lv [L [A NL]]] [K1 [K2 [K3 K4]]]. unfold SelfGood. rewrite K1, K2. spl; auto.
  exact (no_live_sub _ _ _ NL K4).
Qed.

Lemma SelfGood_refute s r j : SelfGood s r -> SelfGood (refute c s r j) (bumped r (refute_inc s j)).
Proof. intros [Lv [L [A NL]]]. unfold SelfGood. rewrite lk_refute, N.eqb_refl. auto. Qed.

(* a claim about the node itself that is not its own announcement is ignored or refuted *)
Lemma self_claim s r k s' evs : outcome c s k s' evs -> SelfGood s r -> call_name k = self c ->
  match k with CAlive _ _ _ _ _ b => b = false | _ => True end ->
  s' = s \/ (rinc r <= call_inc k)%N /\ s' = refute c s r (call_inc k).
Proof.
  intros H [Lv [L [A NL]]] Hn Hb.
  destruct H as [[->| ->] _ | inc name addr meta vsn b -> Ln _ _ | me _ _ _ L' Ge -> _ | r0 r' m ts L0 Hr _
                | inc name from r0 sA -> _ _ LT _ _ _ | inc name from r0 sA -> _ _ LT _ _ _]; cbn [call_name] in Hn.
  - auto.
  - left. rewrite Hn. apply touch_no_live, NL.
  - congruence.
  - right. assert (me = r) by congruence. subst me. rewrite touch_no_live by exact NL. auto.
  - exfalso. destruct Hr as [? ? ? ? ? _ _ Hl _ | ? ? ? ? ? _ _ Ns _ _ | ? ? ? ? ? ? ? _ _ _ Hb']; cbn [call_name] in Hn.
    + specialize (Hl Hn). congruence.
    + contradiction.
    + specialize (Hb' Hn). congruence.
  - subst name. contradiction.
  - subst name. contradiction.
Qed.

(* ... and it is refuted when it is at or above the node's incarnation, unless it echoes the node's own record *)
Lemma self_accused s r rs j m v : SelfGood s r -> (rinc r <= j)%N -> vsn_bad v = false ->
  (rs = Alive /\ j = rinc r /\ m = rmeta r) \/ fst (do_merge c s rs j (self c) (raddr r) m v) = refute c s r j.
Proof.
  intros [Lv [L [A NL]]] Ge Vb. apply N.ltb_ge in Ge.
  destruct rs; cbn [do_merge];
    rewrite ?(suspect_about_self c s r Lv L A NL), ?(dead_about_self c s r Lv L A NL), ?(alive_about_self c s r Lv L A NL j m v Vb), Ge; auto.
  destruct (N.eqb j (rinc r) && N.eqb m (rmeta r) && Nlist_eqb v (rvsn r)) eqn:T; [left | right; reflexivity].
  apply andb_true_iff in T. destruct T as [T _]. apply andb_true_iff in T. destruct T as [T1 T2].
  apply N.eqb_eq in T1, T2. auto.
Qed.

(* one entry about x itself: x's record changes in its incarnation at most, which ends above the entry's *)
Lemma self_entry s r rs j a m v : SelfGood s r ->
  exists i, SelfGood (fst (do_merge c s rs j (self c) a m v)) (bumped r i) /\
    (below_max j -> below_max (linc s) -> (rinc r <= i)%N /\
     (a = raddr r -> vsn_bad v = false -> (rinc r <= j)%N -> (rs = Alive /\ j = rinc r /\ m = rmeta r) \/ (j < i)%N)).
Proof.
  intro SG.
  destruct (self_claim s r _ _ _ (call_outcome c s (merge_call c rs j (self c) a m v)) SG) as [E|[Ge E]];
    [apply merge_call_name | destruct rs; exact I || reflexivity | |];
    rewrite <- do_merge_call, ?merge_call_inc in *; rewrite E.
  - exists (rinc r). rewrite bumped_same. split; [exact SG|]. intros Bj Bl. split; [lia|]. intros -> Vb Ge.
    destruct (self_accused s r rs j m v SG Ge Vb) as [Echo|Ref]; [left; exact Echo|].
    (* refuted and yet unchanged: but a refutation moves the counter *)
    rewrite E in Ref. apply (f_equal linc) in Ref. rewrite linc_refute in Ref.
    destruct (refute_outranks s j Bj Bl). lia.
  - exists (refute_inc s j). split; [apply SelfGood_refute, SG|].
    intros Bj Bl. destruct (refute_outranks s j Bj Bl). split; [lia | auto].
Qed.

(* x merges a whole state list: it stays a running, self-listing node whose record changes in its incarnation
   at most, and every entry about itself at or above its incarnation that is not an exact echo of its own
   record has been outranked *)
Lemma x_merges_bumped l s r : NoDup (map fst l) -> SelfGood s r ->
  exists i, SelfGood (merge_all c s (map ent l)) (bumped r i) /\
    ((forall q, In (self c, q) l -> below_max (rinc q) /\ below_max (linc s)) ->
     (rinc r <= i)%N /\
     forall q, In (self c, q) l -> raddr q = raddr r -> vsn_bad (rvsn q) = false -> (rinc r <= rinc q)%N ->
       (rst q = Alive /\ rinc q = rinc r /\ rmeta q = rmeta r) \/ (rinc q < i)%N).
Proof.
  intros ND SG. destruct (alookup (self c) l) as [q|] eqn:Lq.
  - pose proof (alookup_some_in _ _ _ Lq) as Hin.
    destruct (merge_all_at l (self c) q ND Hin s) as [s0 [K0 K1]].
    destruct (SelfGood_keeps _ _ _ SG K0) as [SG0 Li0].
    destruct (self_entry s0 r (rst q) (rinc q) (raddr q) (rmeta q) (rvsn q) SG0) as [i [SG1 H]].
    exists i. split; [apply (SelfGood_keeps _ _ _ SG1 K1)|].
    intro HB. destruct (HB q Hin) as [Bq Bl]. rewrite <- Li0 in Bl. destruct (H Bq Bl) as [Ge Cl]. split; [exact Ge|].
    intros q' Hin'. rewrite (in_alookup_nodup _ _ _ ND Hin') in Lq. inversion Lq. exact Cl.
  - exists (rinc r). rewrite bumped_same. split.
    + apply (SelfGood_keeps s r); [exact SG|]. apply merge_all_keeps, alookup_none_notin, Lq.
    + intros _. split; [lia|]. intros q Hin. rewrite (in_alookup_nodup _ _ _ ND Hin) in Lq. discriminate.
Qed.

Lemma x_merges l : NoDup (map fst l) -> forall s r, SelfGood s r ->
  (forall q, In (self c, q) l -> below_max (rinc q) /\ below_max (linc s)) ->
  exists r', SelfGood (merge_all c s (map ent l)) r' /\ raddr r' = raddr r /\ rmeta r' = rmeta r /\ rvsn r' = rvsn r
    /\ (rinc r <= rinc r')%N
    /\ (forall q, In (self c, q) l -> raddr q = raddr r -> vsn_bad (rvsn q) = false -> (rinc r <= rinc q)%N ->
          (rst q = Alive /\ rinc q = rinc r /\ rmeta q = rmeta r) \/ (rinc q < rinc r')%N).
Proof.
  intros ND s r SG HB. destruct (x_merges_bumped l s r ND SG) as [i [SG' H]]. destruct (H HB) as [Ge Cl].
  exists (bumped r i). spl; auto.
Qed.

(* The node that receives the report (y).  The entry "X is Alive at incarnation i, address a, metadata m" at a node that holds nothing about X
   (and admits a), or any record of X at the same address: the record is kept if it is not older *)
Lemma y_entry s X i a m v :
  X <> self c -> vsn_bad v = false ->
  (lk s X = None /\ is_allowed c a = true /\ (0 < i)%N) \/ (exists ry, lk s X = Some ry /\ raddr ry = a) ->
  exists r', lk (fst (do_alive c s i X a m v false)) X = Some r' /\
    (good_listing r' a m \/ lk s X = Some r' /\ (i <= rinc r')%N).
Proof.
  intros Hn Vb [[LN [Al Hi]]|[ry [L Ea]]].
  - rewrite (alive_unknown_placed c s i X a m v false LN Hn Al Vb).
    rewrite (alive_other c _ i X a m v false (new_rec a m v)); auto; [|rewrite lk_place, N.eqb_refl by exact LN; reflexivity].
    cbn [new_rec rinc]. destruct (N.leb_spec i 0); [lia|]. cbn [fst]. rewrite lk_commit, N.eqb_refl.
    eexists. split; [reflexivity|]. left. repeat split.
  - rewrite (alive_other c s i X a m v false ry L Hn Ea Vb). destruct (N.leb_spec i (rinc ry)); cbn [fst].
    + exists ry. auto.
    + rewrite lk_commit, N.eqb_refl. eexists. split; [reflexivity|]. left. repeat split.
Qed.

(* y merges a state list in which X is Alive *)
Lemma y_merges l X q s : NoDup (map fst l) -> In (X, q) l -> rst q = Alive ->
  X <> self c -> vsn_bad (rvsn q) = false ->
  (lk s X = None /\ is_allowed c (raddr q) = true /\ (0 < rinc q)%N) \/ (exists ry, lk s X = Some ry /\ raddr ry = raddr q) ->
  exists r', lk (merge_all c s (map ent l)) X = Some r' /\
    (good_listing r' (raddr q) (rmeta q) \/ lk s X = Some r' /\ (rinc q <= rinc r')%N).
Proof.
  intros ND Hin A Hn Vb Prior. destruct (merge_all_at l X q ND Hin s) as [s0 [K0 K1]].
  destruct K0 as [K0 _], K1 as [K1 _]. rewrite K1, A, <- K0. cbn [do_merge]. apply y_entry; [exact Hn | exact Vb | rewrite K0; exact Prior].
Qed.

End OneNode.

(* One exchange.  x keeps listing itself, its record changing in its incarnation at most (to i); y comes to hold a
   record of x at x's address, which lists x as x does unless y held it before, at or above x's incarnation --
   and then x has read it and, the counters not wrapping, has moved above it. *)
Lemma pushpull_heals cx sx cy sy rx :
  keys_ok sx -> keys_ok sy -> self cx <> self cy -> SelfGood cx sx rx -> vsn_bad (rvsn rx) = false ->
  (lk sy (self cx) = None /\ is_allowed cy (raddr rx) = true /\ (0 < rinc rx)%N) \/
  (exists ry, lk sy (self cx) = Some ry /\ raddr ry = raddr rx) ->
  exists i ry1,
    SelfGood cx (fst (pushpull cx sx cy sy)) (bumped rx i) /\
    lk (snd (pushpull cx sx cy sy)) (self cx) = Some ry1 /\ raddr ry1 = raddr rx /\
    (good_listing ry1 (raddr rx) (rmeta rx) \/
     lk sy (self cx) = Some ry1 /\ (rinc rx <= rinc ry1)%N /\
     (below_max (rinc ry1) -> below_max (linc sx) -> vsn_bad (rvsn ry1) = false ->
      good_listing ry1 (raddr rx) (rmeta rx) \/ (rinc ry1 < i)%N)).
Proof.
  intros Kx Ky Hxy SG Vb Prior. unfold pushpull. rewrite !snapshot_ent. cbn [fst snd].
  destruct (x_merges_bumped cx (recs sy) sx rx Ky SG) as [i [SG1 Hx]].
  pose proof SG as [_ [Lx [Ax _]]].
  destruct (y_merges cy (recs sx) (self cx) rx sy Kx (alookup_some_in _ _ _ Lx) Ax Hxy Vb Prior) as [ry1 [Ly1 Hy]].
  assert (Ea : raddr ry1 = raddr rx).
  { destruct Hy as [[_ [E _]]|[L _]]; [exact E|]. destruct Prior as [[LN _]|[ry [L' E]]]; congruence. }
  exists i, ry1. spl; auto.
  destruct Hy as [G|[L Ge]]; [left; exact G | right]. spl; auto. intros By Bl Vy.
  destruct Hx as [_ Cl].
  { intros q Hq. apply (in_alookup_nodup _ _ _ Ky) in Hq. unfold lk in L. rewrite L in Hq. inversion Hq. subst q. auto. }
  destruct (Cl ry1 (alookup_some_in _ _ _ L) Ea Vy Ge) as [[A [_ M]]|Lt]; [left; repeat split; assumption | right; exact Lt].
Qed.

Theorem two_pushpulls_heal cx sx cy sy rx :
  keys_ok sx -> keys_ok sy -> self cx <> self cy ->
  SelfGood cx sx rx -> (0 < rinc rx)%N -> vsn_bad (rvsn rx) = false -> below_max (linc sx) ->
  ((lk sy (self cx) = None /\ is_allowed cy (raddr rx) = true) \/
   (exists ry, lk sy (self cx) = Some ry /\ raddr ry = raddr rx /\ vsn_bad (rvsn ry) = false /\ below_max (rinc ry))) ->
  let '(sx2, sy2) := pushpull2 cx sx cy sy in
  (exists r', lk sy2 (self cx) = Some r' /\ good_listing r' (raddr rx) (rmeta rx)) /\
  (exists rx2, SelfGood cx sx2 rx2 /\ raddr rx2 = raddr rx /\ rmeta rx2 = rmeta rx).
Proof.
  intros Kx Ky Hxy SG Hi Vb Bl Prior. unfold pushpull2.
  destruct (pushpull_heals cx sx cy sy rx Kx Ky Hxy SG Vb) as [i [ry1 [SG1 [Ly1 [Ea1 H1]]]]].
  { destruct Prior as [[LN Al]|[ry [L [Ea _]]]]; [left; auto | right; eauto]. }
  assert (K1 : keys_ok (fst (pushpull cx sx cy sy)) /\ keys_ok (snd (pushpull cx sx cy sy))).
  { unfold pushpull. rewrite !snapshot_ent. split; apply merge_all_keys; assumption. }
  destruct (pushpull cx sx cy sy) as [sx1 sy1]. cbn [fst snd] in *. destruct K1 as [Kx1 Ky1].
  destruct (pushpull_heals cx sx1 cy sy1 (bumped rx i) Kx1 Ky1 Hxy SG1 Vb) as [i2 [ry2 [SG2 [Ly2 [_ H2]]]]]; [right; eauto|].
  destruct (pushpull cx sx1 cy sy1) as [sx2 sy2]. cbn [fst snd bumped raddr rmeta rinc] in *.
  split; [exists ry2; split; [exact Ly2|] | exists (bumped rx i2); auto].
  destruct H2 as [G|[L2 [Ge2 _]]]; [exact G|].
  (* y kept its record through the second exchange: it is at or above the incarnation x had after the first ... *)
  assert (ry2 = ry1) by congruence. subst ry2.
  destruct H1 as [G|[L1 [_ Out]]]; [exact G|].
  (* ... and through the first, in which x moved above it *)
  destruct Prior as [[LN _]|[ry [L [_ [Vy By]]]]]; [congruence|]. assert (ry = ry1) by congruence. subst ry.
  destruct (Out By Bl Vy) as [G|Lt]; [exact G | lia].
Qed.

Lemma pushpull2_sym cx sx cy sy :
  pushpull2 cy sy cx sx = (snd (pushpull2 cx sx cy sy), fst (pushpull2 cx sx cy sy)).
Proof. unfold pushpull2, pushpull. reflexivity. Qed.

(* what one node must hold about the other for the theorem to apply: nothing (and its allow-list admits the
   address), or any record at the same address with a well-formed version vector *)
Definition heal_prior (cy : cfg) (sy : nstate) (cx : cfg) (rx : rec) : Prop :=
  (lk sy (self cx) = None /\ is_allowed cy (raddr rx) = true) \/
  (exists ry, lk sy (self cx) = Some ry /\ raddr ry = raddr rx /\ vsn_bad (rvsn ry) = false /\ below_max (rinc ry)).

Definition heal_self (cx : cfg) (sx : nstate) (rx : rec) : Prop :=
  keys_ok sx /\ SelfGood cx sx rx /\ (0 < rinc rx)%N /\ vsn_bad (rvsn rx) = false /\ below_max (linc sx).

(* both directions at once *)
Theorem two_pushpulls_heal_mutual cx sx cy sy rx ry :
  self cx <> self cy -> heal_self cx sx rx -> heal_self cy sy ry ->
  heal_prior cy sy cx rx -> heal_prior cx sx cy ry ->
  let '(sx2, sy2) := pushpull2 cx sx cy sy in
  listed sy2 (self cx) = Some (raddr rx, rmeta rx) /\ listed sx2 (self cy) = Some (raddr ry, rmeta ry) /\
  listed sx2 (self cx) = Some (raddr rx, rmeta rx) /\ listed sy2 (self cy) = Some (raddr ry, rmeta ry).
Proof.
  intros Hxy [Kx [SGx [Ix [Vx Bx]]]] [Ky [SGy [Iy [Vy By]]]] Py Px.
  pose proof (two_pushpulls_heal cx sx cy sy rx Kx Ky Hxy SGx Ix Vx Bx Py) as H1.
  pose proof (two_pushpulls_heal cy sy cx sx ry Ky Kx (not_eq_sym Hxy) SGy Iy Vy By Px) as H2.
  rewrite pushpull2_sym in H2.
  destruct (pushpull2 cx sx cy sy) as [sx2 sy2]. cbn [fst snd] in H2.
  destruct H1 as [[r1 [L1 G1]] [rx2 [[_ [Lx2 [Ax2 _]]] [Adx Mx]]]].
  destruct H2 as [[r2 [L2 G2]] [ry2 [[_ [Ly2 [Ay2 _]]] [Ady My]]]].
  spl; eapply listed_good; eauto; repeat split; assumption.
Qed.
