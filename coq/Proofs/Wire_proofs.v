(* Wire_proofs.v — packet-path theorems behind C11, C12, C13, C14, C15, C16. *)
From VF Require Import Base Label Label_proofs Wire.
Local Open Scope N_scope.

Lemma byte_split x : x / 256 * 256 + x mod 256 = x.
Proof. rewrite N.mul_comm. symmetry. apply N.div_mod. discriminate. Qed.

(* reading the bytes back folds [byte_split] up from the most significant end; the top byte needs
   no [mod] because x is in range *)
Lemma rd32_be32 x : x < 4294967296 -> match be32 x with [a; b; c; d] => rd32 a b c d = x | _ => False end.
Proof.
  intro H. unfold be32, rd32.
  change 65536 with (256 * 256). change 16777216 with (256 * 256 * 256). rewrite <- !N.div_div by discriminate.
  rewrite (N.mod_small (x / 256 / 256 / 256)) by (repeat apply N.div_lt_upper_bound; try discriminate; exact H).
  rewrite !byte_split. reflexivity.
Qed.

Lemma be32_spec x : x < 4294967296 -> exists a b c d, be32 x = [a; b; c; d] /\ rd32 a b c d = x.
Proof. intro H. eexists _, _, _, _. split; [reflexivity | exact (rd32_be32 x H)]. Qed.

Lemma be16_spec x : x < 65536 -> exists a b, be16 x = [a; b] /\ rd16 a b = x.
Proof.
  intro H. eexists _, _. split; [reflexivity|]. unfold rd16.
  rewrite (N.mod_small (x / 256)) by (apply N.div_lt_upper_bound; [discriminate | exact H]). apply byte_split.
Qed.

Definition small_parts (msgs : list bytes) : Prop := Forall (fun m => blen m < 65536) msgs.

Lemma compound_header_length (msgs : list bytes) :
  length (flat_map (fun m => be16 (blen m mod 65536)) msgs) = (2 * length msgs)%nat.
Proof. induction msgs as [|m msgs IH]; cbn [flat_map length app be16]; lia. Qed.

Lemma read_lengths_header msgs rest : small_parts msgs ->
  read_lengths (length msgs) (flat_map (fun m => be16 (blen m mod 65536)) msgs ++ rest) = map blen msgs.
Proof.
  induction 1 as [|m msgs Hm _ IH]; [reflexivity|]. cbn [length flat_map map].
  rewrite (N.mod_small _ _ Hm). destruct (be16_spec _ Hm) as (a & b & -> & R).
  cbn [app read_lengths]. rewrite R, IH. reflexivity.
Qed.

Lemma split_parts_ok : forall msgs : list bytes,
  split_parts (map blen msgs) (concat msgs) = (O, msgs).
Proof.
  induction msgs as [|m msgs IH]; [reflexivity|]. cbn [map concat split_parts]. rewrite to_nat_blen.
  rewrite ltb_app_len, skipn_app_len, firstn_app_len, IH by reflexivity. reflexivity.
Qed.

(* C11: a compound of at most 255 parts, each shorter than 64 KiB, decodes to exactly those parts *)
Theorem compound_roundtrip msgs : (length msgs <= 255)%nat -> small_parts msgs ->
  match make_compound msgs with
  | t :: body => t = t_compound /\ decode_compound body = Ok (O, msgs)
  | [] => False
  end.
Proof.
  intros Hn Hs. split; [reflexivity|]. unfold decode_compound.
  rewrite N.mod_small, Nat2N.id by lia.
  rewrite ltb_app_len, skipn_app_len by apply compound_header_length.
  rewrite read_lengths_header, split_parts_ok by exact Hs. reflexivity.
Qed.

(* the count byte wraps: 300 parts in ONE compound are announced as 44 (the pinned sendMsg did this) *)
Example single_compound_wraps :
  nth 1 (make_compound (repeat [1] 300)) 0 = 44.
Proof. vm_compute. reflexivity. Qed.

Lemma chunk255_spec : forall fuel msgs, (length msgs < fuel)%nat ->
  concat (chunk255 fuel msgs) = msgs /\ Forall (fun c => (length c <= 255)%nat) (chunk255 fuel msgs).
Proof.
  (* all that matters of the chunk size is that it is positive *)
  set (k := 255%nat). assert (Hk : (0 < k)%nat) by apply Nat.lt_0_succ.
  induction fuel as [|fuel IH]; intros msgs Hf; [lia|]. cbn [chunk255]. fold k. clearbody k.
  destruct msgs as [|m msgs]; [split; [reflexivity | constructor]|].
  destruct (Nat.ltb_spec k (length (m :: msgs))) as [Hl|Hl].
  - destruct (IH (skipn k (m :: msgs))) as [I1 I2]; [rewrite skipn_length; cbn [length] in *; lia|].
    cbn [concat]. rewrite I1, firstn_skipn. repeat constructor; [apply firstn_le_length | exact I2].
  - cbn [concat]. rewrite app_nil_r. repeat constructor. exact Hl.
Qed.

Definition decode_all (pkts : list bytes) : list bytes :=
  flat_map (fun p => match p with
                     | _ :: body => match decode_compound body with Ok (_, parts) => parts | _ => [] end
                     | [] => [] end) pkts.

Lemma decode_all_compounds chunks :
  Forall (fun c => (length c <= 255)%nat) chunks -> Forall small_parts chunks ->
  decode_all (map make_compound chunks) = concat chunks.
Proof.
  induction 1 as [|c cs Hc _ IH]; intro Hs; [reflexivity|]. inversion Hs as [|? ? Hsc Hscs]; subst.
  cbn [map concat]. unfold decode_all. cbn [flat_map]. fold (decode_all (map make_compound cs)).
  unfold make_compound at 1. destruct (compound_roundtrip c Hc Hsc) as [_ ->]. rewrite IH by exact Hscs. reflexivity.
Qed.

(* C11: whatever the number of parts, the receiver unpacks exactly the messages that were packed *)
Theorem compounds_roundtrip msgs : small_parts msgs -> decode_all (make_compounds msgs) = msgs.
Proof.
  intro Hs. destruct (chunk255_spec (S (length msgs)) msgs ltac:(lia)) as [C1 C2].
  rewrite <- C1 in Hs at 1. apply Forall_concat in Hs.
  rewrite <- C1 at 2. apply decode_all_compounds; assumption.
Qed.

Lemma crc32_bound b : crc32 b < 4294967296.
Proof. unfold crc32. apply N.mod_upper_bound. discriminate. Qed.

(* the pad length brings the length to the next multiple of 16 and is never 0 *)
Lemma pad_amount L : let n := 16 - L mod 16 in 1 <= n <= 16 /\ (L + n) mod 16 = 0.
Proof.
  cbv zeta. assert (E : L + (16 - L mod 16) = (L / 16 + 1) * 16 /\ 1 <= 16 - L mod 16 <= 16).
  { rewrite (N.div_mod L 16) at 1 by discriminate. generalize (N.mod_upper_bound L 16 ltac:(discriminate)).
    generalize (L mod 16), (L / 16). lia. }
  destruct E as [-> E]. split; [exact E | apply N.mod_mul; discriminate].
Qed.

Lemma pkcs7_pad_blen b : blen (pkcs7_pad b) = blen b + (16 - blen b mod 16).
Proof. unfold pkcs7_pad, blen. rewrite app_length, repeat_length. generalize (16 - N.of_nat (length b) mod 16). lia. Qed.

Lemma last_app_repeat (b : bytes) x n : (0 < n)%nat -> last (b ++ repeat x n) 0 = x.
Proof.
  intro H. destruct n as [|n]; [lia|]. cbn [repeat]. rewrite repeat_cons, app_assoc. apply last_last.
Qed.

Lemma unpad_raw_nonempty (l : bytes) : l <> [] ->
  pkcs7_unpad_raw l = if blen l <? last l 0 then Panic else Ok (firstn (length l - N.to_nat (last l 0)) l).
Proof. destruct l; [contradiction | reflexivity]. Qed.
Lemma valid_nonempty (l : bytes) : l <> [] ->
  pkcs7_valid l = (N.eqb (blen l mod 16) 0 && (1 <=? last l 0) && (last l 0 <=? 16) && (last l 0 <=? blen l)
                   && forallb (N.eqb (last l 0)) (skipn (length l - N.to_nat (last l 0)) l)).
Proof. destruct l; [contradiction | reflexivity]. Qed.

Lemma unpad_valid_no_panic plain : pkcs7_valid plain = true -> pkcs7_unpad_raw plain <> Panic.
Proof.
  intro V. destruct plain as [|x l]; [discriminate|].
  rewrite valid_nonempty in V by discriminate. rewrite unpad_raw_nonempty by discriminate.
  (* the fourth test of validity, last <= length, is the one unpadding slices by *)
  apply andb_true_iff, proj1, andb_true_iff, proj2, N.leb_le in V.
  destruct (N.ltb_spec (blen (x :: l)) (last (x :: l) 0)); [lia | discriminate].
Qed.

(* [b] followed by n bytes of value n: the last byte is n, and cutting n bytes off the end is cutting
   at [length b] *)
Lemma pkcs7_padded (b : bytes) n : 1 <= n <= 16 -> (blen b + n) mod 16 = 0 ->
  pkcs7_unpad_raw (b ++ repeat n (N.to_nat n)) = Ok b /\ pkcs7_valid (b ++ repeat n (N.to_nat n)) = true.
Proof.
  intro Hn. set (p := b ++ repeat n (N.to_nat n)). assert (Hlast : last p 0 = n) by (apply last_app_repeat; lia).
  assert (Hne : p <> []) by (intro E; rewrite E in Hlast; cbn in Hlast; lia).
  assert (Hlen : length p = (length b + N.to_nat n)%nat) by (unfold p; rewrite app_length, repeat_length; reflexivity).
  assert (Hb : blen p = blen b + n) by (unfold blen; lia).
  intro Hm. rewrite unpad_raw_nonempty, valid_nonempty, Hlast, Hb, Hlen, Hm by exact Hne. clear Hm.
  replace (length b + N.to_nat n - N.to_nat n)%nat with (length b) by lia.
  unfold p. rewrite firstn_app_len, skipn_app_len by reflexivity. split.
  - destruct (N.ltb_spec (blen b + n) n); [lia | reflexivity].
  - repeat (apply andb_true_intro; split); try (apply N.leb_le; lia); [reflexivity|].
    apply forallb_forall. intros y Hy. apply repeat_spec in Hy as ->. apply N.eqb_refl.
Qed.

(* PKCS7: what the sender pads, the receiver (raw or validating) strips *)
Lemma pkcs7_roundtrip (b : bytes) : pkcs7_unpad_raw (pkcs7_pad b) = Ok b /\ pkcs7_valid (pkcs7_pad b) = true.
Proof. apply pkcs7_padded; apply pad_amount. Qed.

Lemma encrypted_length_bound vsn n : (vsn = 0 \/ vsn = 1) -> encrypted_length vsn n <= n + enc_overhead vsn.
Proof.
  intro Hv. unfold encrypted_length, enc_overhead. generalize (n mod 16).
  destruct (N.leb_spec 1 vsn), (N.eqb_spec vsn 0); lia.
Qed.

(* the shortest frame is that of the empty message *)
Lemma encrypted_length_min vsn n : encrypted_length vsn 0 <= encrypted_length vsn n.
Proof.
  unfold encrypted_length. change (0 mod 16) with 0.
  generalize (N.mod_le n 16 ltac:(discriminate)). generalize (n mod 16). destruct (1 <=? vsn); lia.
Qed.

Lemma enc_on_of_key c k : In k (keys c) -> enc_on c = true.
Proof. unfold enc_on. destruct (keys c); [intros [] | reflexivity]. Qed.

(* The receiving side alone: nothing is assumed of the AEAD (outside [IdealAEAD]) or the decompressor. *)
Section Receiver.
Variable open : N -> bytes -> bytes -> bytes -> option bytes.
Variable decomp : bytes -> option bytes.
Notation ingest := (ingest open decomp).
Notation handle_command := (handle_command decomp).
Notation decrypt_payload := (decrypt_payload open).

Theorem decrypt_no_panic c msg aad : fixed c = true -> decrypt_payload c msg aad <> Panic.
Proof.
  intro Hf. unfold Wire.decrypt_payload. rewrite Hf. destruct msg as [|vsn rest]; [discriminate|].
  destruct (1 <? vsn); [discriminate|]. destruct (_ <? _); [discriminate|].
  destruct (try_keys _ _ _ _ _) as [plain|]; [|discriminate]. destruct (N.eqb vsn 0); [|discriminate].
  destruct (pkcs7_valid plain) eqn:V; [apply unpad_valid_no_panic, V | discriminate].
Qed.

(* the last stage of ingestPacket: strip a checksum header if there is one, then dispatch *)
Definition dispatch (fuel : nat) (b : bytes) : outcome (list delivery) :=
  match b with
  | t :: c1 :: c2 :: c3 :: c4 :: rest =>
      if N.eqb t t_hascrc then
        if N.eqb (crc32 rest) (rd32 c1 c2 c3 c4) then Ok (handle_command fuel rest) else Ok []
      else Ok (handle_command fuel b)
  | _ => Ok (handle_command fuel b)
  end.

Lemma dispatch_no_panic fuel b : dispatch fuel b <> Panic.
Proof.
  destruct b as [|t [|c1 [|c2 [|c3 [|c4 rest]]]]]; try discriminate.
  unfold dispatch. destruct (N.eqb t t_hascrc); [destruct (N.eqb _ _)|]; discriminate.
Qed.

(* the checksum header the sender adds is checked and stripped *)
Lemma dispatch_crc fuel m : dispatch fuel (t_hascrc :: be32 (crc32 m) ++ m) = Ok (handle_command fuel m).
Proof.
  destruct (be32_spec _ (crc32_bound m)) as (a & b & c & d & -> & R).
  unfold dispatch. cbn [app]. rewrite R, !N.eqb_refl. reflexivity.
Qed.

(* the message types that may open a packet body *)
Definition msg_start_ok (m : bytes) : Prop :=
  match m with [] => True | t :: _ => t <> t_hascrc /\ t <> has_label_msg end.

Lemma start_ok_no_header m : msg_start_ok m -> forall b r, m = b :: r -> b <> has_label_msg.
Proof. intros H b r ->. apply H. Qed.

Lemma dispatch_plain fuel m : msg_start_ok m -> dispatch fuel m = Ok (handle_command fuel m).
Proof.
  intro H. destruct m as [|t [|c1 [|c2 [|c3 [|c4 rest]]]]]; try reflexivity.
  unfold dispatch. destruct (N.eqb_spec t t_hascrc); [destruct H; contradiction | reflexivity].
Qed.

(* C13: no byte string makes the packet path of the repaired code panic *)
Theorem ingest_no_panic fuel c pkt : fixed c = true -> ingest fuel c pkt <> Panic.
Proof.
  intro Hf. unfold Wire.ingest. destruct (remove_label pkt) as [[buf lab]| |]; try discriminate.
  destruct (skip_label c && _); [discriminate|]. set (lab' := if skip_label c then plabel c else lab).
  destruct (negb _); [discriminate|]. pose proof (decrypt_no_panic c buf lab' Hf) as NP.
  destruct (enc_on c); [destruct (decrypt_payload c buf lab') as [p|e|]; [| destruct (negb (verify_in c)) | contradiction] |];
    try discriminate; apply dispatch_no_panic.
Qed.

(* a packet with the node's label whose crypto stage yields [b] goes on to dispatch *)
Lemma ingest_accepted fuel c pkt buf b :
  remove_label pkt = Ok (buf, plabel c) -> skip_label c = false ->
  (if enc_on c then decrypt_payload c buf (plabel c) = Ok b else buf = b) ->
  ingest fuel c pkt = dispatch fuel b.
Proof.
  intros Hr Hs Hb. unfold Wire.ingest. rewrite Hr, Hs, (proj2 (list_eqb_eq N.eqb N.eqb_eq _ _) eq_refl).
  destruct (enc_on c); [rewrite Hb | subst b]; reflexivity.
Qed.

(* conversely, a packet that has any effect carried exactly the label the gate asks for (none, when
   the check is delegated) and, where incoming verification is on, was decrypted with the node's own
   label as associated data *)
Lemma ingest_effect fuel c pkt ds : ingest fuel c pkt = Ok ds -> ds <> [] ->
  exists buf, remove_label pkt = Ok (buf, if skip_label c then [] else plabel c) /\
    (enc_on c = true -> verify_in c = true -> exists p, decrypt_payload c buf (plabel c) = Ok p).
Proof.
  (* every branch that turns the packet away returns Ok [], which the premises exclude *)
  unfold Wire.ingest. intros H Hne. destruct (remove_label pkt) as [[buf lab]| |]; [|congruence..]. exists buf.
  destruct (skip_label c && _) eqn:G1; [congruence|]. cbv zeta in H. set (lab' := if skip_label c then plabel c else lab) in *.
  destruct (list_eqb N.eqb (plabel c) lab') eqn:G2; [|cbn in H; congruence].
  apply (list_eqb_eq N.eqb N.eqb_eq) in G2. rewrite <- G2 in H. split.
  - unfold lab' in G2. destruct (skip_label c); [destruct lab; [reflexivity | discriminate G1] | rewrite G2; reflexivity].
  - intros He Hv. rewrite He, Hv in H.
    destruct (decrypt_payload c buf (plabel c)) as [p|e|]; [eauto | cbn in H; congruence | discriminate H].
Qed.

(* C16: a packet is acted on only if it carries exactly the node's label (or, when the check is
   delegated, no label header at all) *)
Theorem ingest_label_isolation fuel c pkt ds :
  ingest fuel c pkt = Ok ds -> ds <> [] ->
  exists buf lab, remove_label pkt = Ok (buf, lab) /\
    ((skip_label c = false /\ lab = plabel c) \/ (skip_label c = true /\ lab = [])).
Proof.
  intros H Hne. destruct (ingest_effect fuel c pkt ds H Hne) as (buf & Hr & _).
  exists buf, (if skip_label c then [] else plabel c). split; [exact Hr|]. destruct (skip_label c); auto.
Qed.

(* C14, inbound authentication, of an ideal AEAD: [open] only succeeds on genuine sealings *)
Section IdealAEAD.
Variable genuine : N -> bytes -> bytes -> bytes -> bytes -> Prop.   (* key nonce plaintext aad ct||tag *)
Hypothesis open_sound : forall k n ct ad p, open k n ct ad = Some p -> genuine k n p ad ct.

Lemma try_keys_sound ks n ct ad p : try_keys open ks n ct ad = Some p -> exists k, In k ks /\ genuine k n p ad ct.
Proof using open_sound.
  induction ks as [|k ks IH]; cbn [try_keys]; [discriminate|].
  destruct (open k n ct ad) as [p'|] eqn:E.
  - intros [= <-]. exists k. cbn; eauto.
  - intro H. destruct (IH H) as (k' & Hin & G). exists k'. cbn; eauto.
Qed.

(* what decryptPayload accepts is a genuine sealing under an INSTALLED key with the given associated
   data, of exactly the received nonce and ciphertext; the plaintext handed on is that sealing's
   plaintext -- except that the (unauthenticated) version byte decides whether PKCS7 padding is
   stripped from it: the known finding D-C14 *)
Theorem decrypt_accepts_only_genuine c msg aad p :
  decrypt_payload c msg aad = Ok p ->
  exists vsn k p0, hd_error msg = Some vsn /\ (vsn = 0 \/ vsn = 1) /\ In k (keys c)
    /\ genuine k (firstn 12 (skipn 1 msg)) p0 aad (skipn 13 msg)
    /\ ((vsn = 1 /\ p = p0) \/ (vsn = 0 /\ pkcs7_unpad_raw p0 = Ok p /\ (fixed c = true -> pkcs7_valid p0 = true))).
Proof using open_sound.
  unfold Wire.decrypt_payload. destruct msg as [|vsn rest]; [discriminate|].
  destruct (N.ltb_spec 1 vsn) as [Hv|Hv]; [discriminate|].
  destruct (blen (vsn :: rest) <? encrypted_length vsn 0); [discriminate|].
  destruct (try_keys open _ _ _ _) as [plain|] eqn:T; [|discriminate].
  destruct (try_keys_sound _ _ _ _ _ T) as (k & Hin & G). intro H.
  exists vsn, k, plain. repeat split; auto; [lia|].
  destruct (N.eqb_spec vsn 0) as [E0|N0]; [right | left; split; [lia | congruence]].
  split; [exact E0|]. destruct (fixed c); [destruct (pkcs7_valid plain); [|discriminate]|]; split; auto; discriminate.
Qed.

End IdealAEAD.

(* C14: with a keyring and incoming verification on, a packet has an effect only through a decryption *)
Theorem ingest_authenticated fuel c pkt ds :
  enc_on c = true -> verify_in c = true -> ingest fuel c pkt = Ok ds -> ds <> [] ->
  exists buf lab p, remove_label pkt = Ok (buf, lab) /\
    decrypt_payload c buf (if skip_label c then plabel c else lab) = Ok p /\
    list_eqb N.eqb (plabel c) (if skip_label c then plabel c else lab) = true.
Proof.
  intros He Hv H Hne. destruct (ingest_effect fuel c pkt ds H Hne) as (buf & Hr & Hd). destruct (Hd He Hv) as [p Hp].
  eexists buf, _, p. split; [exact Hr|].
  destruct (skip_label c); (split; [exact Hp | apply (list_eqb_eq N.eqb N.eqb_eq); reflexivity]).
Qed.

End Receiver.

(* Sender and receiver together. *)
Section Pipeline.
Variable seal : N -> bytes -> bytes -> bytes -> bytes.
Variable open : N -> bytes -> bytes -> bytes -> option bytes.
Variable comp : bytes -> bytes.
Variable decomp : bytes -> option bytes.

(* hypotheses about code memberlist does not own: the AEAD and the compressor *)
Hypothesis open_seal : forall k n p ad, open k n (seal k n p ad) ad = Some p.
Hypothesis open_other_key : forall k k' n p ad, k <> k' -> open k' n (seal k n p ad) ad = None.
Hypothesis seal_length : forall k n p ad, length (seal k n p ad) = (length p + 16)%nat.
Hypothesis comp_ok : forall m, exists body, comp m = t_compress :: body /\ decomp body = Some m.

Notation send_packet := (send_packet seal comp).
Notation ingest := (ingest open decomp).
Notation handle_command := (handle_command decomp).
Notation decrypt_payload := (decrypt_payload open).

Lemma try_keys_finds ks k n p ad : In k ks -> try_keys open ks n (seal k n p ad) ad = Some p.
Proof using open_seal open_other_key.
  induction ks as [|k0 ks IH]; intro Hin; [destruct Hin|]. cbn [try_keys].
  destruct (N.eq_dec k k0) as [->|Hne]; [rewrite open_seal; reflexivity|].
  rewrite open_other_key by exact Hne. apply IH. destruct Hin as [E|Hin]; [congruence | exact Hin].
Qed.

Lemma encrypt_payload_length vsn k nonce m aad : length nonce = 12%nat -> (vsn = 0 \/ vsn = 1) ->
  blen (encrypt_payload seal vsn k nonce m aad) = encrypted_length vsn (blen m).
Proof using seal_length.
  intros Hn Hv. unfold encrypt_payload, blen at 1. cbn [length]. rewrite app_length, seal_length, Hn.
  pose proof (pkcs7_pad_blen m) as Hp. unfold encrypted_length, blen in *. revert Hp. generalize (N.of_nat (length m) mod 16).
  destruct Hv as [-> | ->]; cbn [N.eqb]; [destruct (N.leb_spec 1 0) | destruct (N.leb_spec 1 1)]; lia.
Qed.

(* C12/C14 crypto layer: what encryptPayload produced, decryptPayload with a ring holding the key returns *)
Lemma decrypt_encrypt c vsn k nonce m aad :
  length nonce = 12%nat -> (vsn = 0 \/ vsn = 1) -> In k (keys c) ->
  decrypt_payload c (encrypt_payload seal vsn k nonce m aad) aad = Ok m.
Proof using open_seal open_other_key seal_length.
  intros Hn Hv Hk. pose proof (encrypt_payload_length vsn k nonce m aad Hn Hv) as Len.
  pose proof (encrypted_length_min vsn (blen m)) as Min.
  unfold Wire.decrypt_payload, encrypt_payload in *. set (ct := seal k nonce _ aad) in *.
  destruct (N.ltb_spec 1 vsn); [lia|].
  destruct (N.ltb_spec (blen (vsn :: nonce ++ ct)) (encrypted_length vsn 0)); [lia|].
  rewrite !skipn_cons, skipn_O, firstn_app_len, skipn_app_len by exact Hn.
  unfold ct. rewrite try_keys_finds by exact Hk.
  destruct Hv as [-> | ->]; cbn [N.eqb]; [|reflexivity].
  destruct (pkcs7_roundtrip m) as [-> ->]. destruct (fixed c); reflexivity.
Qed.

(* compressed messages are transparently unwrapped, one level of dispatch deeper *)
Lemma handle_compressed fuel m : handle_command (S fuel) (comp m) = handle_command fuel m.
Proof using comp_ok.
  destruct (comp_ok m) as [body [E D]]. rewrite E. cbn [Wire.handle_command]. rewrite D. reflexivity.
Qed.

Definition label_ok (l : bytes) : Prop := (length l <= 255)%nat.

(* sender and receiver agree on label and keys *)
Definition compatible (cs cr : pcfg) : Prop :=
  plabel cs = plabel cr /\ skip_label cr = false /\ label_ok (plabel cs)
  /\ (encvsn cs = 0 \/ encvsn cs = 1)
  /\ ((enc_on cs && verify_out cs = true /\ In (primary cs) (keys cr))
      \/ (enc_on cs && verify_out cs = false /\ enc_on cr = false)).

(* The four layers of the sender, undone one by one by the receiver.  Compression, where it pays, costs
   the receiver one level of its dispatch depth. *)
Lemma packet_pipeline cs cr pm msg nonce fuel :
  compatible cs cr -> length nonce = 12%nat -> msg_start_ok msg ->
  exists pkt, send_packet cs pm msg nonce = Ok pkt /\
    ingest (S fuel) cr pkt =
      Ok (handle_command (if compress_on cs && (length (comp msg) <? length msg)%nat then fuel else S fuel) msg).
Proof using open_seal open_other_key seal_length comp_ok.
  intros (Hl & Hs & Hlo & Hv & Hk) Hn Hm. unfold Wire.send_packet. cbv zeta.
  (* layer 1, compression *)
  set (z := compress_on cs && _). set (m1 := if compress_on cs then _ else msg).
  assert (H1 : handle_command (S fuel) m1 = handle_command (if z then fuel else S fuel) msg /\ msg_start_ok m1).
  { unfold m1, z. destruct (compress_on cs); [destruct (_ <? _)%nat|]; cbn [andb]; auto.
    rewrite handle_compressed. destruct (comp_ok msg) as (body & -> & _). repeat split; discriminate. }
  destruct H1 as [Hh Hm1].
  (* layer 2, checksum *)
  set (m2 := match pm with Some p => if 5 <=? p then t_hascrc :: be32 (crc32 m1) ++ m1 else m1 | None => m1 end).
  assert (H2 : dispatch decomp (S fuel) m2 = Ok (handle_command (S fuel) m1)
               /\ forall b r, m2 = b :: r -> b <> has_label_msg).
  { unfold m2. destruct pm as [p|]; [destruct (5 <=? p)|];
      try (split; [apply dispatch_plain, Hm1 | apply start_ok_no_header, Hm1]).
    split; [apply dispatch_crc | intros b r E; injection E as <- _; discriminate]. }
  (* layer 3, encryption; its version byte is not the label header byte either *)
  set (m3 := if enc_on cs && verify_out cs then encrypt_payload _ _ _ _ _ _ else _).
  assert (H3 : forall b r, m3 = b :: r -> b <> has_label_msg).
  { unfold m3, encrypt_payload. destruct (enc_on cs && verify_out cs); [|apply H2].
    intros b r E. injection E as <- _. destruct Hv as [-> | ->]; discriminate. }
  (* layer 4, the label *)
  rewrite add_label_header by exact Hlo. eexists. split; [reflexivity|]. rewrite <- Hh, <- (proj1 H2).
  apply ingest_accepted with (buf := m3); rewrite <- ?Hl; [apply remove_added_label; intros _; exact H3 | exact Hs |].
  destruct Hk as [[He Hin]|[He ->]]; unfold m3; rewrite He; [|reflexivity].
  rewrite (enc_on_of_key cr _ Hin). apply decrypt_encrypt; assumption.
Qed.

(* C12: a peer with a compatible configuration hands exactly the sender's message to its handlers,
   whatever the compression, checksum, encryption version and label settings *)
Theorem packet_roundtrip_pipeline cs cr pm msg nonce fuel :
  compatible cs cr -> length nonce = 12%nat -> msg_start_ok msg ->
  (msg <> [] ) ->
  exists pkt, send_packet cs pm msg nonce = Ok pkt /\
    exists f', (f' = fuel \/ f' = S fuel) /\ ingest (S fuel) cr pkt = Ok (handle_command f' msg)
               /\ (compress_on cs = false -> f' = S fuel).
Proof using open_seal open_other_key seal_length comp_ok.
  intros Hc Hn Hm _. destruct (packet_pipeline cs cr pm msg nonce fuel Hc Hn Hm) as (pkt & E & H).
  exists pkt. split; [exact E|]. eexists. split; [|split; [exact H|]]; destruct (compress_on cs); [destruct (_ <? _)%nat|..]; cbn [andb]; auto; discriminate.
Qed.

End Pipeline.

Section Sealed.
Variable seal : N -> bytes -> bytes -> bytes -> bytes.
Variable comp : bytes -> bytes.
Notation send_packet := (send_packet seal comp).

(* C15: with encryption enforced, what reaches the transport is the cleartext label header followed
   by version, nonce and the AEAD sealing, under the PRIMARY key with the label as associated data,
   of the (padded) payload -- nothing else *)
Theorem packet_sealed c pm msg nonce :
  enc_on c = true -> verify_out c = true -> label_ok (plabel c) ->
  exists body, send_packet c pm msg nonce =
    Ok (label_header (plabel c) ++ encvsn c :: nonce ++
        seal (primary c) nonce (if N.eqb (encvsn c) 0 then pkcs7_pad body else body) (plabel c)).
Proof.
  intros He Hv Hl. unfold Wire.send_packet. rewrite He, Hv, add_label_header by exact Hl. eexists. reflexivity.
Qed.

End Sealed.

(* C11: the packet budget *)
Definition label_overhead (l : bytes) : N := match l with [] => 0 | _ => 2 + blen l end.

(* bytes on the wire for a packet carrying [n] message bytes before encryption (CRC header counted
   in n when present): label header + encryption framing (version, nonce, padding, tag) *)
Definition wire_len (c : pcfg) (n : N) : N :=
  label_overhead (plabel c) + (if enc_on c && verify_out c then encrypted_length (encvsn c) n else n).

Lemma wire_len_bound c n : (encvsn c = 0 \/ encvsn c = 1) ->
  wire_len c n <= label_overhead (plabel c) + n + (if enc_on c && verify_out c then enc_overhead (encvsn c) else 0).
Proof.
  intro Hv. unfold wire_len. destruct (enc_on c && verify_out c); [pose proof (encrypted_length_bound _ n Hv)|]; lia.
Qed.

Fixpoint parts_size (msgs : list bytes) : N := match msgs with [] => 0 | m :: l => 2 + blen m + parts_size l end.

Lemma parts_size_length msgs : parts_size msgs = N.of_nat (2 * length msgs + length (concat msgs)).
Proof.
  induction msgs as [|m l IH]; [reflexivity|]. cbn [parts_size concat length]. rewrite app_length, IH. unfold blen. lia.
Qed.

Lemma compound_length msgs : blen (make_compound msgs) = 2 + parts_size msgs.
Proof.
  unfold make_compound, blen. cbn [length]. rewrite app_length, compound_header_length, parts_size_length. lia.
Qed.

(* The budgets are written with truncated subtraction, [avail := udp - overheads]; a selection that
   fits [avail] fits the packet only because the overheads alone do. *)
Lemma fits_budget x over udp : over <= udp -> x <= udp - over -> x + over <= udp.
Proof. lia. Qed.

(* sendMsg (repaired): msg plus the piggy-backed selection, whose sizes the queues guarantee to fit
   [avail] (C10_get_fits with overhead 2), in ONE compound of at most 255 parts; 2 + 2 + 5 are the compound
   header, the first part's length slot and the CRC header *)
Theorem sendmsg_budget c udp msg extra :
  (encvsn c = 0 \/ encvsn c = 1) ->
  let avail := udp - blen msg - 2 - 2 - 5 - label_overhead (plabel c)
               - (if enc_on c && verify_out c then enc_overhead (encvsn c) else 0) in
  blen msg + 2 + 2 + 5 + label_overhead (plabel c) + (if enc_on c && verify_out c then enc_overhead (encvsn c) else 0) <= udp ->
  parts_size extra <= avail -> (length (msg :: extra) <= 255)%nat ->
  wire_len c (5 + blen (make_compound (msg :: extra))) <= udp.
Proof.
  intros Hv avail Hpos Hfit _. eapply N.le_trans; [apply wire_len_bound, Hv|].
  rewrite compound_length. cbn [parts_size]. unfold avail in Hfit. rewrite <- !N.sub_add_distr in Hfit.
  apply fits_budget in Hfit; lia.
Qed.

(* gossip (repaired): the selection alone; state.go's gossip() tests only whether a keyring is set *)
Theorem gossip_budget c udp msgs :
  (encvsn c = 0 \/ encvsn c = 1) ->
  let avail := udp - 2 - 5 - label_overhead (plabel c) - (if enc_on c then enc_overhead (encvsn c) else 0) in
  2 + 5 + label_overhead (plabel c) + (if enc_on c then enc_overhead (encvsn c) else 0) <= udp ->
  parts_size msgs <= avail -> (length msgs <= 255)%nat ->
  wire_len c (5 + blen (make_compound msgs)) <= udp.
Proof.
  intros Hv avail Hpos Hfit _. eapply N.le_trans; [apply wire_len_bound, Hv|].
  rewrite compound_length. unfold avail in Hfit. rewrite <- !N.sub_add_distr in Hfit.
  apply fits_budget in Hfit; [|lia]. destruct (enc_on c), (verify_out c); cbn [andb]; lia.
Qed.

(* the pinned budget is too small by the first part's 2-byte length slot and the 5-byte CRC header *)
Example sendmsg_budget_pinned_refuted :
  let c := mkP [97;98;99] false [1] true true 1 false false in
  let udp := 1400 in let msg := repeat 0 20 in
  let avail_pinned := udp - blen msg - 2 - label_overhead (plabel c) - enc_overhead 1 in
  let extra := [repeat 0 (N.to_nat (avail_pinned - 2))] in
  parts_size extra <= avail_pinned /\ wire_len c (5 + blen (make_compound (msg :: extra))) = 1407.
Proof. vm_compute. split; [discriminate | reflexivity]. Qed.
