From VF Require Import Base Keyring.

Section WithValid.
Variable valid : N -> bool.

Definition RingInv (s : kstate) : Prop :=
  NoDup (ring s) /\ Forall (fun k => valid k = true) (ring s) /\ cur s < length (arrs s).

Lemma ring_install s keys p : ring (install s keys p) = p :: filter (fun k => negb (N.eqb k p)) keys.
Proof. unfold ring, install; cbn [arrs cur]. rewrite app_nth2 by lia. rewrite Nat.sub_diag. reflexivity. Qed.

(* what installKeysLocked needs to leave a well-formed ring; the state it starts from does not matter *)
Lemma install_inv s keys p :
  NoDup keys -> Forall (fun k => valid k = true) keys -> valid p = true -> RingInv (install s keys p).
Proof.
  intros ND FV Vp. unfold RingInv. rewrite ring_install. split; [|split].
  - constructor; [|apply NoDup_filter, ND]. rewrite filter_In, N.eqb_refl. intros [_ H]. discriminate.
  - constructor; [exact Vp | exact (incl_Forall (incl_filter _ _) FV)].
  - cbn. rewrite app_length. cbn. lia.
Qed.

Lemma remove_at_incl {A} i (l : list A) : incl (remove_at i l) l.
Proof.
  revert i. induction l as [|a l IH]; intros [|i]; cbn; auto using incl_refl, incl_tl, incl_cons, in_eq.
Qed.

Lemma remove_at_NoDup {A} i (l : list A) : NoDup l -> NoDup (remove_at i l).
Proof.
  revert i. induction l as [|a l IH]; intros [|i] ND; cbn; auto; inversion ND; subst; auto.
  constructor; [|apply IH; assumption]. intro H. apply remove_at_incl in H. contradiction.
Qed.

(* every operation, repaired or not, keeps the ring well formed: it leaves the state alone or
   installs keys taken from the ring, plus a fresh valid one for AddKey *)
Theorem kstep_inv fixed s o : RingInv s -> RingInv (fst (kstep valid fixed s o)).
Proof.
  intros HI. pose proof HI as (ND & FV & _). pose proof (proj1 (Forall_forall _ _) FV) as Hv.
  destruct o as [k|k|k| |]; cbn [kstep]; try exact HI.
  - destruct (valid k) eqn:V; cbn [negb]; [|exact HI].
    destruct (Nmem k (ring s)) eqn:M; [exact HI|]. apply install_inv.
    + apply NoDup_app_one; [exact ND|]. rewrite <- Nmem_In, M. discriminate.
    + apply Forall_app. auto.
    + destruct (ring s); [exact V | apply Hv, in_eq].
  - destruct (Nmem k (ring s)) eqn:M; [|exact HI].
    apply install_inv; [exact ND | exact FV | apply Hv, Nmem_In, M].
  - destruct (ring s) as [|p r]; [destruct fixed; exact HI|].
    destruct (N.eqb k p); [exact HI|]. destruct (index_of k (p :: r)) as [i|]; [|exact HI].
    apply install_inv; [apply remove_at_NoDup, ND | exact (incl_Forall (remove_at_incl _ _) FV) | apply Hv, in_eq].
Qed.

(* the repaired code never panics, and never touches an array once it exists: it leaves the state
   alone or installs a fresh array *)
Lemma kstep_fixed s o :
  kres (snd (kstep valid true s o)) <> 2%N /\
  (fst (kstep valid true s o) = s \/ exists keys p, fst (kstep valid true s o) = install s keys p).
Proof.
  (* walk the branches of kstep; every leaf returns 0 or 1 and either s itself or an install *)
  destruct o as [k|k|k| |]; cbn [kstep];
    [ destruct (negb (valid k)); [|destruct (Nmem k (ring s))]
    | destruct (Nmem k (ring s))
    | destruct (ring s) as [|p r]; [|destruct (N.eqb k p); [|destruct (index_of k (p :: r))]]
    | | ];
    cbn; split; (discriminate || eauto).
Qed.

(* a property of the state that every operation keeps holds after every history *)
Lemma krun_invariant fixed (P : kstate -> Prop) :
  (forall s o, P s -> P (fst (kstep valid fixed s o))) ->
  forall ops s, P s -> P (fst (krun valid fixed s ops)).
Proof.
  intro Hstep. induction ops as [|o ops IH]; intros s H; cbn [krun]; [exact H|].
  specialize (Hstep s o H). destruct (kstep valid fixed s o) as [s1 x].
  destruct (N.eqb (kres x) 2); [exact Hstep|]. specialize (IH s1 Hstep). destruct (krun valid fixed s1 ops). exact IH.
Qed.

Theorem krun_inv fixed : forall ops s, RingInv s -> RingInv (fst (krun valid fixed s ops)).
Proof. apply krun_invariant, kstep_inv. Qed.

(* the repaired code only ever appends arrays *)
Lemma krun_arrays_extend ops s : exists ext, arrs (fst (krun valid true s ops)) = arrs s ++ ext.
Proof.
  apply krun_invariant; [|exists []; symmetry; apply app_nil_r].
  intros s1 o [ext E]. destruct (proj2 (kstep_fixed s1 o)) as [->|(keys & p & ->)]; [eauto|].
  cbn. rewrite E, <- app_assoc. eauto.
Qed.

(* so a list handed out by GetKeys is immutable *)
Theorem krun_arrays_frozen : forall ops s h, h < length (arrs s) ->
  nth h (arrs (fst (krun valid true s ops))) [] = nth h (arrs s) [].
Proof. intros ops s h Hh. destruct (krun_arrays_extend ops s) as [ext ->]. apply app_nth1, Hh. Qed.

Theorem krun_no_panic : forall ops s, Forall (fun x => kres x <> 2%N) (snd (krun valid true s ops)).
Proof.
  induction ops as [|o ops IH]; intros s; cbn [krun]; [constructor|].
  pose proof (proj1 (kstep_fixed s o)) as NP. destruct (kstep valid true s o) as [s1 x]. cbn [snd] in NP.
  destruct (N.eqb_spec (kres x) 2); [contradiction|]. specialize (IH s1). destruct (krun valid true s1 ops).
  constructor; assumption.
Qed.

End WithValid.

(* ---------- zero-downtime rotation: install new everywhere, use new everywhere, remove old everywhere ---------- *)
Definition vtrue (k : N) : bool := true.
Definition ring_at_phase (old new : N) (p : nat) : list N :=
  ring (fst (krun vtrue true (mkK [[old]] 0) (firstn p [KAdd new; KUse new; KRemove old]))).

Lemma ring_phases old new : old <> new ->
  ring_at_phase old new 0 = [old] /\ ring_at_phase old new 1 = [old; new]
  /\ ring_at_phase old new 2 = [new; old] /\ ring_at_phase old new 3 = [new].
Proof.
  intro H. assert (E1 : N.eqb new old = false) by (apply N.eqb_neq; congruence).
  assert (E2 : N.eqb old new = false) by (apply N.eqb_neq; exact H).
  (* one step at a time, with the arrays as they accumulate: evaluating the three prefixes whole
     would redo the earlier steps and is much slower *)
  set (a1 := [[old]; [old; new]]). set (a2 := a1 ++ [[new; old]]). set (ok := mkKO 0 [] None).
  assert (S1 : kstep vtrue true (mkK [[old]] 0) (KAdd new) = (mkK a1 1, ok)).
  { cbn. rewrite E1. unfold install. cbn. rewrite N.eqb_refl, E1. reflexivity. }
  assert (S2 : kstep vtrue true (mkK a1 1) (KUse new) = (mkK a2 2, ok)).
  { cbn. rewrite E1, N.eqb_refl. unfold install. cbn. rewrite E2, N.eqb_refl. reflexivity. }
  assert (S3 : kstep vtrue true (mkK a2 2) (KRemove old) = (mkK (a2 ++ [[new]]) 3, ok)).
  { cbn. rewrite E2, N.eqb_refl. unfold install. cbn. rewrite N.eqb_refl. reflexivity. }
  unfold ring_at_phase. cbn [firstn krun]. rewrite S1. cbn [kres N.eqb]. rewrite S2. cbn [kres N.eqb]. rewrite S3.
  repeat split.
Qed.

(* phases of all nodes lie within one barrier window *)
Definition window_ok (ps : list nat) : Prop :=
  Forall (fun p => p <= 1) ps \/ Forall (fun p => 1 <= p <= 2) ps \/ Forall (fun p => 2 <= p <= 3) ps.

Theorem rotation_safe old new ps : old <> new -> window_ok ps ->
  forall pi pj, In pi ps -> In pj ps ->
  exists prim, hd_error (ring_at_phase old new pi) = Some prim /\ In prim (ring_at_phase old new pj).
Proof.
  intros Hne W pi pj Hi Hj. destruct (ring_phases old new Hne) as (R0 & R1 & R2 & R3).
  (* both phases are a or a+1 for some a <= 2: check the table *)
  assert (Wa : exists a, a <= 2 /\ (pi = a \/ pi = S a) /\ (pj = a \/ pj = S a)).
  { destruct W as [W|[W|W]]; rewrite Forall_forall in W; pose proof (W pi Hi); pose proof (W pj Hj);
      [exists 0 | exists 1 | exists 2]; lia. }
  destruct Wa as ([|[|[|]]] & Ha & [->| ->] & [->| ->]); try lia;
    rewrite ?R0, ?R1, ?R2, ?R3; eexists; split; try reflexivity; cbn; auto.
Qed.

(* the defects of the pinned tree, as witnesses on the unrepaired model *)
Example alias_refuted :
  let '(s, xs) := krun vtrue false (mkK [[1; 2; 3]%N] 0) [KGetKeys; KRemove 2] in
  nth 0 (arrs s) [] = [1; 3; 3]%N /\ ring s = [1; 3]%N.
Proof. vm_compute. split; reflexivity. Qed.

Example remove_empty_refuted :
  map kres (snd (krun vtrue false (mkK [[]] 0) [KRemove 1])) = [2%N].
Proof. vm_compute. reflexivity. Qed.
