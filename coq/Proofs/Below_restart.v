(* Below_restart.v — C05 when members may also crash and come back under the same name.
   A restarted member starts again at incarnation 1 while claims from its earlier life are still held by
   others and still on the network, so "below the owner's current counter" is no longer an invariant.
   What stays true for every schedule: no claim about a member ever carries an incarnation above one that
   the member itself announced at some moment of the run (in this life or an earlier one); and a
   restarted member that hears such a claim jumps strictly above it. *)
From VF Require Import Base Core Core_lemmas Core_inv Core_props Below_proofs Cluster Cluster_proofs Below_cluster.
Local Open Scope Z_scope.

Inductive ract :=
| RA (g : gact)
| RRestart (i : nat) (meta : N).       (* the process is replaced by a fresh one with the same configuration *)

Definition rstep (w : world) (a : ract) : world :=
  match a with
  | RA g => fst (gstep w g)
  | RRestart i meta =>
      match nth_error (wnodes w) i with
      | Some (c, _) => mkW (upd i (fun _ => (c, boot c meta)) (wnodes w)) (wpool w)
      | None => w
      end
  end.

(* the run, remembering every world it went through (newest first) *)
Fixpoint rrun (w : world) (tr : list world) (l : list ract) : world * list world :=
  match l with
  | [] => (w, tr)
  | a :: l' => let w' := rstep w a in rrun w' (w' :: tr) l'
  end.

(* member n's counter was v at some moment of the run *)
Definition announced (tr : list world) (n v : N) : Prop :=
  exists w c s, In w tr /\ In (c, s) (wnodes w) /\ self c = n /\ linc s = v.

Definition hle (tr : list world) (n inc : N) : Prop :=
  inc = 0%N \/ exists v, announced tr n v /\ (inc <= v)%N.

Lemma hle_mono tr w n inc : hle tr n inc -> hle (w :: tr) n inc.
Proof.
  intros [E|[v [[w0 [c [s [H1 H2]]]] Hv]]]; [left; exact E|].
  right. exists v. split; [|exact Hv]. exists w0, c, s. split; [right; exact H1 | exact H2].
Qed.

Record RW (tr : list world) (w : world) : Prop := mkRW {
  rw_here : In w tr;
  rw_nodes : forall c s, In (c, s) (wnodes w) -> good_cfg c /\ FInv c s /\ bounded c (hle tr) s;
  rw_pool : forall p, In p (wpool w) -> hle tr (pname p) (pinc p);
  rw_names : NoDup (names w) }.

Lemma hle0 tr n : hle tr n 0%N.
Proof. left. reflexivity. Qed.

(* a node's own counter, now, is one it had at some moment of the run *)
Lemma hle_own tr w c s i : In w tr -> In (c, s) (wnodes w) -> (i <= linc s)%N -> hle tr (self c) i.
Proof. intros Hw Hin H. right. exists (linc s). split; [|exact H]. exists w, c, s. auto. Qed.

Lemma RW_within tr w : RW tr w <-> In w tr /\ within (hle tr) w /\ (forall c s, In (c, s) (wnodes w) -> good_cfg c) /\ NoDup (names w).
Proof.
  split.
  - intros [Hh Hn Hp Hu]. split; [exact Hh|]. split; [split; [|exact Hp]|split; [|exact Hu]].
    + intros c s Hin. destruct (Hn c s Hin) as [[F _] [I Hb]].
      split; [exact F | split; [exact I | split; [exact Hb | intro i; eapply hle_own; eauto]]].
    + intros c s Hin. apply (Hn c s Hin).
  - intros [Hh [[Hn Hp] [Hg Hu]]]. constructor; auto. intros c s Hin. destruct (Hn c s Hin) as [_ [I [Hb _]]].
    split; [apply (Hg c s Hin) | split; assumption].
Qed.

Theorem gstep_RW tr w g : RW tr w -> gact_ok w g -> RW (fst (gstep w g) :: tr) (fst (gstep w g)).
Proof.
  intros HW Hok. apply RW_within in HW. destruct HW as [Hh [HW [Hg Hu]]].
  destruct (gstep_within (hle tr) (hle (fst (gstep w g) :: tr)) w g (hle0 tr) HW Hok) as [En [Hl Hw']].
  apply RW_within. split; [left; reflexivity|]. split; [|split; [|rewrite En; exact Hu]].
  - apply Hw'; [intros n i; apply hle_mono|]. intros c s Hin i. apply (hle_own _ (fst (gstep w g))); [left; reflexivity | exact Hin].
  - intros c s' Hin. destruct (Hl c s' Hin) as [s [Hin0 _]]. apply (Hg c s Hin0).
Qed.

Definition ract_ok (w : world) (a : ract) : Prop := match a with RA g => gact_ok w g | RRestart _ _ => True end.

Theorem rstep_RW tr w a : RW tr w -> ract_ok w a -> RW (rstep w a :: tr) (rstep w a).
Proof.
  intros HW Hok. destruct a as [g|i meta]; cbn [rstep ract_ok] in *; [apply gstep_RW; assumption|].
  pose proof HW as [Hh Hn Hp Hu].
  assert (Old : forall c0 s0, In (c0, s0) (wnodes w) -> good_cfg c0 /\ FInv c0 s0 /\ bounded c0 (hle (rstep w (RRestart i meta) :: tr)) s0).
  { intros c0 s0 K. destruct (Hn c0 s0 K) as [F0 [I0 B0]]. split; [exact F0|]. split; [exact I0|].
    apply (bounded_mono c0 (hle tr)); [intros n k; apply hle_mono | exact B0]. }
  cbn [rstep] in *. destruct (nth_error (wnodes w) i) as [[c s]|] eqn:Hi.
  - destruct (Hn c s (nth_error_In _ _ Hi)) as [Hg _]. fold (put w i c (boot c meta)) in *.
    constructor; [left; reflexivity | | intros p Hp'; apply hle_mono, Hp, Hp' | ].
    + apply (put_nodes w i c s (boot c meta) Hi); [exact Old|]. split; [exact Hg|]. pose proof Hg as [F [V A]].
      split; [apply boot_FInv; assumption | apply boot_bounded; exact Hg].
    + rewrite (put_names w i c s (boot c meta) Hi). exact Hu.
  - constructor; [left; reflexivity | exact Old | intros p Hp'; apply hle_mono, Hp, Hp' | exact Hu].
Qed.

Fixpoint rrun_ok (w : world) (l : list ract) : Prop :=
  match l with
  | [] => True
  | a :: l' => ract_ok w a /\ rrun_ok (rstep w a) l'
  end.

Theorem rrun_RW : forall l tr w, RW tr w -> rrun_ok w l -> RW (snd (rrun w tr l)) (fst (rrun w tr l)).
Proof.
  induction l as [|a l IH]; intros tr w HW Hok; cbn [rrun fst snd]; [exact HW|].
  destruct Hok as [Ha Hl]. apply IH; [apply rstep_RW; assumption | exact Hl].
Qed.

Lemma boot_world_RW cs :
  Forall (fun cm => good_cfg (fst cm)) cs -> NoDup (map (fun cm => self (fst cm)) cs) ->
  RW [boot_world cs] (boot_world cs).
Proof.
  intros Hg Hu. constructor; [left; reflexivity| |intros p []|rewrite boot_world_names; exact Hu].
  intros c s Hin. destruct (boot_world_node _ cs c s Hg Hin) as [G [m ->]]. pose proof G as [F [V A]].
  split; [exact G | split; [apply boot_FInv; assumption | apply boot_bounded, G]].
Qed.

(* C05 with restarts: in every reachable state, every claim about a member — held by any node, queued
   for gossip anywhere, or ever put on the network — carries an incarnation the member itself reached at
   some moment of the run, or a lower one *)
Theorem claims_below_history cs acts :
  Forall (fun cm => good_cfg (fst cm)) cs -> NoDup (map (fun cm => self (fst cm)) cs) ->
  rrun_ok (boot_world cs) acts ->
  let w := fst (rrun (boot_world cs) [boot_world cs] acts) in
  let tr := snd (rrun (boot_world cs) [boot_world cs] acts) in
  (forall c s n r, In (c, s) (wnodes w) -> lk s n = Some r -> hle tr n (rinc r)) /\
  (forall c s k m, In (c, s) (wnodes w) -> In (k, m) (bq s) -> hle tr (mname m) (minc m)) /\
  (forall p, In p (wpool w) -> hle tr (pname p) (pinc p)).
Proof.
  intros Hg Hu Hok w tr.
  pose proof (rrun_RW acts _ _ (boot_world_RW cs Hg Hu) Hok) as HW.
  apply RW_within in HW. exact (within_claims (hle tr) w (proj1 (proj2 HW))).
Qed.

(* a member — freshly restarted or not — that hears an accusation at or above its own record moves
   strictly above the accusation and queues its alive message *)
Theorem restarted_member_overtakes c s r inc from :
  Inv c s -> leaving s = false -> lk s (self c) = Some r -> rst r = Alive -> (rinc r <= inc)%N ->
  below_max inc -> below_max (linc s) ->
  let s' := fst (do_suspect c s inc (self c) from) in
  (inc < linc s')%N /\ (linc s < linc s')%N /\
  alookup (kaddr (raddr r)) (bq s') = Some (BAlive (linc s') (self c) (raddr r) (rmeta r) (rvsn r)).
Proof.
  intros HI Lv L A Ge Bi Bl. cbv zeta.
  rewrite (suspect_self_refuted c s inc from r HI Lv L A Ge).
  pose proof (refute_effect c s r inc Bi Bl) as [R1 [R2 [R3 [R4 _]]]].
  split; [exact R1 | split; [exact R2 | exact R4]].
Qed.

(* the decidable side condition, for examples *)
Definition ract_okb (w : world) (a : ract) : bool := match a with RA g => gact_okb w g | RRestart _ _ => true end.
Fixpoint rrun_okb (w : world) (l : list ract) : bool :=
  match l with
  | [] => true
  | a :: l' => ract_okb w a && rrun_okb (rstep w a) l'
  end.
Lemma rrun_okb_ok : forall l w, rrun_okb w l = true -> rrun_ok w l.
Proof.
  induction l as [|a l IH]; intros w H; cbn in *; [exact I|].
  apply andb_true_iff in H. destruct H as [H1 H2]. split; [|apply IH; exact H2].
  destruct a as [g|i m]; cbn in *; [|exact I].
  pose proof (grun_okb_ok [g] w) as X. cbn in X. rewrite H1 in X. apply X. reflexivity.
Qed.
