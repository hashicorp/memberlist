(* Cluster_proofs.v — C04 for the whole cluster: from booted nodes and an empty network, under every
   interleaving of gossip, push/pull snapshots, deliveries (with duplication, reordering and loss),
   UpdateNode, Leave, the passage of time and reaping — and no failed probe — no node ever holds a
   suspicion timer or a Suspect/Dead record, no suspect message and no dead message signed by somebody
   else is ever queued or on the network, and the only leave events are for members that called Leave. *)
From VF Require Import Base Core Core_lemmas Core_inv Healthy_proofs Cluster.
Local Open Scope Z_scope.

Definition clean_pmsg (dep : N -> bool) (p : pmsg) : Prop :=
  match p with
  | PB m => clean_msg dep m
  | PS Alive inc _ _ _ _ => (0 < inc)%N
  | PS Left _ n _ _ _ => dep n = true
  | PS _ _ _ _ _ _ => False
  end.

Definition names (w : world) : list N := map (fun cs => self (fst cs)) (wnodes w).

(* the members that have left are those of the world itself, a set that grows along a run: hence clean_mono,
   clean_pmsg_mono, ev_quiet_mono *)
Record WI (w : world) : Prop := mkWI {
  wi_nodes : forall c s, In (c, s) (wnodes w) -> fixed c = true /\ clean (departed w) c s;
  wi_pool : forall p, In p (wpool w) -> clean_pmsg (departed w) p;
  wi_names : NoDup (names w) }.

(* incarnations stay below the largest representable value at the acting node and in the claim it
   processes (the bound in the statements of C02/C05; at 2^32-1 the counter wraps) *)
Definition act_ok (w : world) (a : wact) : Prop :=
  match a with
  | WDeliver i k =>
      match nth_error (wnodes w) i, nth_error (wpool w) k with
      | Some (_, s), Some p =>
          below_max (linc s) /\
          match p with
          | PB (BAlive inc _ _ _ _) | PS Alive inc _ _ _ _ => below_max inc
          | _ => True
          end
      | _, _ => True
      end
  | WUpdate i _ _ | WLeave i _ | WAdvance i _ | WReap i =>
      match nth_error (wnodes w) i with Some (_, s) => below_max (linc s) | None => True end
  | WGossip _ | WSnapshot _ => True
  end.

Lemma nth_error_upd {A} (f : A -> A) : forall l i k,
  nth_error (upd i f l) k = if Nat.eqb k i then option_map f (nth_error l k) else nth_error l k.
Proof.
  induction l as [|y l IH]; intros i k; [destruct i, k; cbn; try reflexivity; destruct (Nat.eqb k i); reflexivity|].
  destruct i, k; cbn; try reflexivity. apply IH.
Qed.

Lemma map_upd {A B} (g : A -> B) (f : A -> A) : forall l i,
  (forall y, nth_error l i = Some y -> g (f y) = g y) -> map g (upd i f l) = map g l.
Proof.
  induction l as [|y l IH]; intros [|i] H; cbn; try reflexivity.
  - rewrite (H y eq_refl). reflexivity.
  - rewrite (IH i H). reflexivity.
Qed.

Lemma map_upd_same {A B} (g : A -> B) (f : A -> A) : (forall x, g (f x) = g x) ->
  forall l i, map g (upd i f l) = map g l.
Proof. intros H l i. apply map_upd. intros y _. apply H. Qed.

Lemma departed_spec w n : departed w n = true <-> exists c s, In (c, s) (wnodes w) /\ self c = n /\ leaving s = true.
Proof.
  unfold departed. rewrite existsb_exists. split.
  - intros [[c s] [Hin H]]. cbn in H. apply andb_true_iff in H. destruct H as [H1 H2].
    apply N.eqb_eq in H1. exists c, s. auto.
  - intros [c [s [Hin [H1 H2]]]]. exists (c, s). split; [exact Hin|]. cbn. rewrite H1, N.eqb_refl, H2. reflexivity.
Qed.

(* distinct names: a name sits at one index only, so the node named n, if there is one, is unique *)
Lemma name_index w i j c1 s1 c2 s2 :
  NoDup (names w) -> nth_error (wnodes w) i = Some (c1, s1) -> nth_error (wnodes w) j = Some (c2, s2) ->
  self c1 = self c2 -> i = j.
Proof.
  intros ND Hi Hj E. unfold names in ND.
  assert (Li : (i < length (map (fun cs => self (fst cs)) (wnodes w)))%nat).
  { rewrite map_length. apply nth_error_Some. rewrite Hi. discriminate. }
  apply (proj1 (NoDup_nth_error _) ND i j Li).
  rewrite !nth_error_map, Hi, Hj. cbn. rewrite E. reflexivity.
Qed.

Lemma unique_node w c1 s1 c2 s2 :
  NoDup (names w) -> In (c1, s1) (wnodes w) -> In (c2, s2) (wnodes w) -> self c1 = self c2 -> (c1, s1) = (c2, s2).
Proof.
  intros ND H1 H2 E. apply In_nth_error in H1, H2. destruct H1 as [i Hi], H2 as [j Hj].
  rewrite (name_index w i j c1 s1 c2 s2 ND Hi Hj E) in Hi. congruence.
Qed.

(* the state of node i replaced: what running an operation there, or restarting it, does to the world *)
Definition put (w : world) (i : nat) (c : cfg) (s : nstate) : world :=
  mkW (upd i (fun _ => (c, s)) (wnodes w)) (wpool w).

Lemma at_node_put w i o c s : nth_error (wnodes w) i = Some (c, s) ->
  at_node w i o = (put w i c (fst (step c s o)), snd (step c s o)).
Proof. intro Hi. unfold at_node. rewrite Hi. destruct (step c s o). reflexivity. Qed.

Section Put.
Variables (w : world) (i : nat) (c : cfg) (s s' : nstate).
Hypothesis Hi : nth_error (wnodes w) i = Some (c, s).

Lemma put_nth k : nth_error (wnodes (put w i c s')) k = if Nat.eqb k i then Some (c, s') else nth_error (wnodes w) k.
Proof. cbn [put wnodes]. rewrite nth_error_upd. destruct (Nat.eqb_spec k i) as [->|_]; [rewrite Hi|]; reflexivity. Qed.

Lemma put_In x : In x (wnodes (put w i c s')) <-> x = (c, s') \/ exists j, j <> i /\ nth_error (wnodes w) j = Some x.
Proof.
  split.
  - intro H. apply In_nth_error in H. destruct H as [k Hk]. rewrite put_nth in Hk.
    destruct (Nat.eqb_spec k i); [left; congruence | right; eauto].
  - intros [->|[j [Nj Hj]]]; [apply nth_error_In with i | apply nth_error_In with j]; rewrite put_nth.
    + rewrite Nat.eqb_refl. reflexivity.
    + apply Nat.eqb_neq in Nj. rewrite Nj. exact Hj.
Qed.

Lemma put_nodes (P : cfg -> nstate -> Prop) : (forall c0 s0, In (c0, s0) (wnodes w) -> P c0 s0) -> P c s' ->
  forall c0 s0, In (c0, s0) (wnodes (put w i c s')) -> P c0 s0.
Proof.
  intros Hold Hnew c0 s0 H0. apply put_In in H0.
  destruct H0 as [E|[j [_ Hj]]]; [inversion E; subst; exact Hnew | exact (Hold c0 s0 (nth_error_In _ _ Hj))].
Qed.

Lemma put_names : names (put w i c s') = names w.
Proof. apply map_upd. intros y Hy. rewrite Hi in Hy. inversion Hy. reflexivity. Qed.

Lemma put_departed n : (leaving s = true -> leaving s' = true) -> departed w n = true -> departed (put w i c s') n = true.
Proof.
  intros Lm Hd. apply departed_spec in Hd. destruct Hd as [c0 [s0 [H0 [E0 L0]]]]. apply departed_spec.
  apply In_nth_error in H0. destruct H0 as [j Hj]. destruct (Nat.eq_dec j i) as [->|Nj].
  - rewrite Hi in Hj. inversion Hj; subst c0 s0. exists c, s'. rewrite put_In. auto.
  - exists c0, s0. rewrite put_In. split; [right; exists j|]; auto.
Qed.
End Put.

(* a claim a node can put on the network: a queued broadcast, or the snapshot entry of a record *)
Definition held (s : nstate) (p : pmsg) : Prop :=
  (exists k m, In (k, m) (bq s) /\ p = PB m) \/
  (exists n r, In (n, r) (recs s) /\ p = PS (rst r) (rinc r) n (raddr r) (rmeta r) (rvsn r)).

(* the operation an action makes node i execute: from the pool, the application or the clock, a failed probe *)
Inductive op_from (w : world) (c : cfg) (s : nstate) : gact -> nat -> op -> Prop :=
| from_pool i k p : nth_error (wpool w) k = Some p -> op_from w c s (GA (WDeliver i k)) i (op_of p)
| from_update i meta wt : op_from w c s (GA (WUpdate i meta wt)) i (OUpdate meta wt)
| from_leave i wt : op_from w c s (GA (WLeave i wt)) i (OLeave wt)
| from_advance i dt : op_from w c s (GA (WAdvance i dt)) i (OAdvance dt)
| from_reap i : op_from w c s (GA (WReap i)) i OReap
| from_probe i n r : lk s n = Some r -> op_from w c s (GProbeFail i n) i (OSuspect (rinc r) n (self c)).

(* an action publishes claims one node holds, or runs one operation at one node, or does nothing *)
Inductive delta (w : world) (g : gact) : world * list event -> Prop :=
| published i c s ps : nth_error (wnodes w) i = Some (c, s) -> (forall p, In p ps -> held s p) ->
    delta w g (mkW (wnodes w) (ps ++ wpool w), [])
| ran i c s o : nth_error (wnodes w) i = Some (c, s) -> op_from w c s g i o -> delta w g (at_node w i o)
| nothing : delta w g (w, []).

Lemma gstep_delta w g : delta w g (gstep w g).
Proof.
  destruct g as [[i|i|i k|i meta wt|i wt|i dt|i]|i n]; cbn [gstep wstep];
    try (destruct (nth_error (wnodes w) i) as [[c s]|] eqn:Hi; [|unfold at_node; rewrite ?Hi; try apply nothing]).
  - apply (published w _ i c s _ Hi).
    intros p Hp. apply in_map_iff in Hp. destruct Hp as [[k m] [<- Hin]]. left. exists k, m. auto.
  - apply (published w _ i c s _ Hi).
    intros p Hp. apply in_map_iff in Hp. destruct Hp as [[n r] [<- Hin]]. right. exists n, r. auto.
  - destruct (nth_error (wpool w) k) as [p|] eqn:Hk; [|apply nothing]. apply (ran w _ i c s _ Hi). constructor. exact Hk.
  - destruct (nth_error (wpool w) k); apply nothing.
  - apply (ran w _ i c s _ Hi). constructor.
  - apply (ran w _ i c s _ Hi). constructor.
  - apply (ran w _ i c s _ Hi). constructor.
  - apply (ran w _ i c s _ Hi). constructor.
  - destruct (alookup n (recs s)) as [r|] eqn:L; [|apply nothing]. apply (ran w _ i c s _ Hi). constructor. exact L.
Qed.

Lemma clean_pmsg_mono (dep dep' : N -> bool) p :
  (forall n, dep n = true -> dep' n = true) -> clean_pmsg dep p -> clean_pmsg dep' p.
Proof.
  intros M H. destruct p as [[| |]|[] ]; cbn in *; auto. destruct H as [E D]. split; [exact E | apply M; exact D].
Qed.

Lemma at_node_WI w i o c s :
  WI w -> nth_error (wnodes w) i = Some (c, s) ->
  (* the operation is benign once the node's own departure (if this is Leave) is counted *)
  (forall dep', (forall n, departed w n = true -> dep' n = true) ->
                (match o with OLeave _ => dep' (self c) = true | _ => True end) ->
                benign dep' c s o) ->
  let '(w', evs) := at_node w i o in
  WI w' /\ Forall (ev_quiet (departed w')) evs /\ (forall n, departed w n = true -> departed w' n = true).
Proof.
  intros [Hn Hp Hu] Hi Hb. rewrite (at_node_put w i o c s Hi).
  destruct (Hn c s (nth_error_In _ _ Hi)) as [Hf Hc].
  (* the step is taken with the departures as they will be afterwards: those before (no operation clears the leave
     flag), and this node if the operation is Leave (which sets it) *)
  pose proof (step_keeps_leaving c s o) as Lm.
  pose proof (step_clean (departed (put w i c (fst (step c s o)))) c Hf s o) as P.
  assert (Lo : match o with OLeave _ => leaving (fst (step c s o)) = true | _ => True end)
    by (destruct o; try exact I; apply leave_sets_leaving).
  destruct (step c s o) as [s' evs]. cbn [fst snd] in *.
  assert (M : forall n, departed w n = true -> departed (put w i c s') n = true).
  { intro n. apply (put_departed w i c s s' Hi n Lm). }
  destruct P as [Pc [Pe _]]; [apply (clean_mono _ _ c s M Hc) | apply Hb; [exact M|]|].
  { destruct o; auto. apply departed_spec. exists c, s'. rewrite (put_In w i c s s' Hi). auto. }
  split; [|split; [exact Pe | exact M]].
  constructor.
  - apply (put_nodes w i c s s' Hi); [|split; assumption].
    intros c0 s0 H0. destruct (Hn c0 s0 H0) as [F0 C0]. split; [exact F0 | apply (clean_mono _ _ c0 s0 M C0)].
  - intros p Hp'. apply (clean_pmsg_mono _ _ p M), Hp, Hp'.
  - rewrite (put_names w i c s s' Hi). exact Hu.
Qed.

Lemma held_clean dep c s p : clean dep c s -> held s p -> clean_pmsg dep p.
Proof.
  intros Hc [[k [m [Hin ->]]]|[n [r [Hin ->]]]]; cbn; [eapply cl_bq; eauto|].
  pose proof (in_alookup_nodup n (recs s) r (cl_keys _ _ _ Hc) Hin) as L.
  destruct (cl_recs _ _ _ Hc n r L) as [A|[A D]]; rewrite A; [eapply cl_pos; eauto | exact D].
Qed.

(* what the healthy cluster makes a node execute is no accusation, whatever further members depart *)
Lemma op_from_benign w a i c s o :
  WI w -> act_ok w a -> nth_error (wnodes w) i = Some (c, s) -> op_from w c s (GA a) i o ->
  forall dep', (forall n, departed w n = true -> dep' n = true) ->
               (match o with OLeave _ => dep' (self c) = true | _ => True end) -> benign dep' c s o.
Proof.
  intros [Hn Hp Hu] Hok Hi Ho dep' M Hl.
  inversion Ho as [i0 k p Hk| | | | |]; subst; cbn [act_ok] in Hok; rewrite Hi in Hok; try (split; [exact Hok | exact I || exact Hl]).
  rewrite Hk in Hok. destruct Hok as [Bl Bp]. split; [exact Bl|].
  pose proof (Hp p (nth_error_In _ _ Hk)) as Cp.
  (* a departure notice about this very node: it is the node that left *)
  assert (Own : forall n, departed w n = true -> n = self c -> leaving s = true).
  { intros n Hd En. apply departed_spec in Hd. destruct Hd as [c0 [s0 [H0 [E0 L0]]]].
    assert (E : (c0, s0) = (c, s)) by (apply (unique_node w); [exact Hu | exact H0 | eapply nth_error_In; exact Hi | congruence]).
    inversion E; subst. exact L0. }
  destruct p as [[inc name addr meta vsn | inc name from | inc name from] | rs inc name addr meta vsn]; cbn [op_of clean_pmsg clean_msg] in *.
  - split; [reflexivity | split; assumption].
  - contradiction.
  - destruct Cp as [-> D]. split; [reflexivity | split; [apply M, D | apply Own, D]].
  - destruct rs; try contradiction; [split; assumption | split; [apply M, Cp | apply Own, Cp]].
Qed.

Theorem wstep_WI w a :
  WI w -> act_ok w a ->
  let '(w', evs) := wstep w a in
  WI w' /\ Forall (ev_quiet (departed w')) evs /\ (forall n, departed w n = true -> departed w' n = true).
Proof.
  intros HW Hok. pose proof HW as [Hn Hp Hu]. change (wstep w a) with (gstep w (GA a)).
  destruct (gstep_delta w (GA a)) as [i c s ps Hi Hps | i c s o Hi Ho |].
  - split; [|split; [constructor | auto]]. constructor; cbn [wnodes wpool]; auto.
    intros p Hin. apply in_app_or in Hin. destruct Hin as [Hin|Hin]; [|apply Hp, Hin].
    destruct (Hn c s (nth_error_In _ _ Hi)) as [_ Hc]. eapply held_clean; eauto.
  - apply (at_node_WI w i o c s HW Hi). eapply op_from_benign; eassumption.
  - split; [exact HW | split; [constructor | auto]].
Qed.

Fixpoint run_ok (w : world) (l : list wact) : Prop :=
  match l with
  | [] => True
  | a :: l' => act_ok w a /\ run_ok (fst (wstep w a)) l'
  end.

Lemma ev_quiet_mono (dep dep' : N -> bool) e :
  (forall n, dep n = true -> dep' n = true) -> ev_quiet dep e -> ev_quiet dep' e.
Proof. intros M H. destruct e; cbn in *; auto. Qed.

Lemma wrun_cons w a l : fst (wrun w (a :: l)) = fst (wrun (fst (wstep w a)) l).
Proof. cbn [wrun]. destruct (wstep w a) as [w1 e1]. cbn [fst]. destruct (wrun w1 l). reflexivity. Qed.

Lemma grun_cons w g l : fst (grun w (g :: l)) = fst (grun (fst (gstep w g)) l).
Proof. cbn [grun]. destruct (gstep w g) as [w1 e1]. cbn [fst]. destruct (grun w1 l). reflexivity. Qed.

Theorem wrun_WI : forall l w, WI w -> run_ok w l ->
  let '(w', evs) := wrun w l in
  WI w' /\ Forall (ev_quiet (departed w')) evs /\ (forall n, departed w n = true -> departed w' n = true).
Proof.
  induction l as [|a l IH]; intros w HW Hok; cbn [wrun].
  - split; [exact HW | split; [constructor | auto]].
  - destruct Hok as [Ha Hl]. pose proof (wstep_WI w a HW Ha) as P.
    destruct (wstep w a) as [w1 e1]. cbn [fst] in Hl. destruct P as [P1 [P2 P3]].
    pose proof (IH w1 P1 Hl) as Q. destruct (wrun w1 l) as [w2 e2]. destruct Q as [Q1 [Q2 Q3]].
    split; [exact Q1|]. split.
    + apply Forall_app. split; [|exact Q2].
      eapply Forall_impl; [|exact P2]. intros e He. eapply ev_quiet_mono; [exact Q3 | exact He].
    + intros n Hn. apply Q3. apply P3. exact Hn.
Qed.

Definition good_cfg (c : cfg) : Prop :=
  fixed c = true /\ vsn_bad (self_vsn c) = false /\ is_allowed c (self_addr c) = true.

Definition boot_world (cs : list (cfg * N)) : world :=
  mkW (map (fun cm => (fst cm, boot (fst cm) (snd cm))) cs) [].

Lemma boot_leaving c meta : good_cfg c -> leaving (boot c meta) = false.
Proof. intros [_ [Hv A]]. rewrite (boot_eq c meta A Hv). reflexivity. Qed.

Lemma boot_world_node (G : cfg -> Prop) cs c s :
  Forall (fun cm => G (fst cm)) cs -> In (c, s) (wnodes (boot_world cs)) -> G c /\ exists m, s = boot c m.
Proof.
  intros Hg Hin. apply in_map_iff in Hin. destruct Hin as [[c0 m0] [E Hin]]. inversion E; subst.
  rewrite Forall_forall in Hg. split; [apply (Hg _ Hin) | eauto].
Qed.

Lemma boot_world_names cs : names (boot_world cs) = map (fun cm => self (fst cm)) cs.
Proof. unfold names, boot_world; cbn [wnodes]. apply map_map. Qed.

Lemma boot_world_WI cs :
  Forall (fun cm => good_cfg (fst cm)) cs -> NoDup (map (fun cm => self (fst cm)) cs) -> WI (boot_world cs).
Proof.
  intros Hg Hu. constructor; [|intros p []|rewrite boot_world_names; exact Hu].
  intros c s Hin. destruct (boot_world_node _ cs c s Hg Hin) as [[F [V A]] [m ->]].
  split; [exact F | apply boot_clean; assumption].
Qed.

Definition accusation (p : pmsg) : bool :=
  match p with
  | PB (BSuspect _ _ _) => true
  | PB (BDead _ n f) => negb (N.eqb n f)
  | PS Suspect _ _ _ _ _ | PS Dead _ _ _ _ _ => true
  | _ => false
  end.

(* C04: the statement for the whole cluster *)
Theorem no_accusation_ever cs acts :
  Forall (fun cm => good_cfg (fst cm)) cs -> NoDup (map (fun cm => self (fst cm)) cs) ->
  run_ok (boot_world cs) acts ->
  let '(w, evs) := wrun (boot_world cs) acts in
  (forall c s, In (c, s) (wnodes w) ->
      timers s = [] /\
      (forall n r, lk s n = Some r -> rst r <> Suspect /\ rst r <> Dead) /\
      (forall k m, In (k, m) (bq s) -> accusation (PB m) = false)) /\
  (forall p, In p (wpool w) -> accusation p = false) /\
  (forall e, In e evs -> match e with
                         | EvLeave n _ _ => departed w n = true   (* only for a member that called Leave *)
                         | EvPanic => False
                         | _ => True
                         end).
Proof.
  intros Hg Hu Hok. pose proof (wrun_WI acts _ (boot_world_WI cs Hg Hu) Hok) as P.
  destruct (wrun (boot_world cs) acts) as [w evs]. destruct P as [[Hn Hp _] [He _]].
  split; [|split].
  - intros c s Hin. destruct (Hn c s Hin) as [_ Hc].
    destruct (clean_no_accusation _ _ _ Hc) as [T [R B]]. split; [exact T|]. split; [exact R|].
    intros k m Hm. specialize (B k m Hm). destruct m; cbn in *; auto; try contradiction.
    subst. rewrite N.eqb_refl. reflexivity.
  - intros p Hin. specialize (Hp p Hin). destruct p as [[| |]|[]]; cbn in *; auto; try contradiction.
    destruct Hp as [-> _]. rewrite N.eqb_refl. reflexivity.
  - intros e Hin. rewrite Forall_forall in He. specialize (He e Hin). destruct e; cbn in *; auto.
Qed.
