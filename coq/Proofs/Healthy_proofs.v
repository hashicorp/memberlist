(* Healthy_proofs.v — C04 at the level of one node: a node that holds no suspicion and no
   accusation, and that is only fed claims which are not accusations (alive claims, self-announced
   departures of members that have left, snapshots holding only Alive/Left entries, user calls,
   the passage of time), never comes to hold one: no timer, no Suspect/Dead record, no suspect or
   foreign dead message queued, no leave event except for a member that has left. *)
From VF Require Import Base Core Core_lemmas Core_inv.
Local Open Scope Z_scope.

Section Node.
Variable dep : N -> bool.        (* names of members that have called Leave *)
Variable c : cfg.
Hypothesis Hfixed : fixed c = true.

Definition quiet_rec (n : N) (r : rec) : Prop := rst r = Alive \/ (rst r = Left /\ dep n = true).
Definition clean_msg (m : bmsg) : Prop :=
  match m with
  | BAlive inc _ _ _ _ => (0 < inc)%N
  | BDead _ n from => from = n /\ dep n = true
  | BSuspect _ _ _ => False
  end.

Record clean (s : nstate) : Prop := mkClean {
  cl_timers : timers s = [];
  cl_recs : forall n r, lk s n = Some r -> quiet_rec n r;
  cl_pos : forall n r, lk s n = Some r -> rst r = Alive -> (0 < rinc r)%N;
  cl_bq : forall k m, In (k, m) (bq s) -> clean_msg m;
  cl_leaving : leaving s = true -> dep (self c) = true;
  cl_self : exists r, lk s (self c) = Some r;
  cl_keys : keys_ok s }.

Definition ev_quiet (e : event) : Prop :=
  match e with EvLeave n _ _ => dep n = true | EvPanic => False | _ => True end.

(* operations that are not accusations, at a node whose counter a refutation could still raise *)
Definition benign (s : nstate) (o : op) : Prop :=
  below_max (linc s) /\
  match o with
  | OAlive inc _ _ _ _ b => b = false /\ (0 < inc)%N /\ below_max inc
  | OHandleAlive _ inc _ _ _ _ => (0 < inc)%N /\ below_max inc
  | ODead _ name from => from = name /\ dep name = true /\ (name = self c -> leaving s = true)
  | OMerge Alive inc _ _ _ _ => (0 < inc)%N /\ below_max inc
  | OMerge Left _ name _ _ _ => dep name = true /\ (name = self c -> leaving s = true)
  | OMerge _ _ _ _ _ _ => False
  | OSuspect _ _ _ => False
  | OAdvance _ | OReap | OUpdate _ _ => True
  | OLeave _ => dep (self c) = true
  | OLeaveBegin | OLeaveCommit _ | OIncBegin => False
  end.

(* The claims that are not accusations: that a member is alive, at an incarnation no placeholder has
   (the bounds are those of the refutation an alive claim about the node itself may draw), or the word of
   a member that has left, signed by itself.  It is what [benign] asks of the claim an operation hands
   over, and what Leave and UpdateNode claim about the node itself. *)
Definition quiet_call (s : nstate) (k : call) : Prop :=
  match k with
  | CAlive inc _ _ _ _ b => (0 < inc)%N /\ (b = false -> below_max inc /\ below_max (linc s))
  | CDead _ name from => from = name /\ dep name = true /\ (name = self c -> leaving s = true)
  | CSuspect _ _ _ => False
  end.

Lemma benign_quiet s o k : benign s o -> op_call c o = Some k -> quiet_call s k.
Proof.
  intros [Bl Hb] Ek. destruct o; cbn in Ek, Hb; try discriminate; try contradiction.
  - inversion Ek. cbn. tauto.
  - destruct (_ && _); inversion Ek. cbn. tauto.
  - inversion Ek. exact Hb.
  - destruct rs; try contradiction; inversion Ek; cbn; tauto.
Qed.

Lemma clean_touch s n : clean s -> touch s n = s.
Proof. intro Hc. apply touch_no_live. unfold no_live. rewrite (cl_timers _ Hc). reflexivity. Qed.

(* bookkeeping: records, queue and timers stay *)
Lemma clean_same s s' : clean s -> recs s' = recs s -> bq s' = bq s -> timers s' = timers s ->
  (leaving s' = true -> dep (self c) = true) -> clean s'.
Proof.
  intros [H1 H2 HP H3 H4 H5 H6] Er Eb Et Hl. constructor; unfold lk, keys_ok in *; rewrite ?Er, ?Eb, ?Et; assumption.
Qed.

(* a write: the record of [n] becomes [r'], the message [m] is queued *)
Lemma clean_write s s' n r' k m : clean s ->
  (forall n', lk s' n' = if N.eqb n' n then Some r' else lk s n') -> quiet_rec n r' -> (rst r' = Alive -> (0 < rinc r')%N) ->
  bq s' = aset k m (bq s) -> clean_msg m -> timers s' = [] -> leaving s' = leaving s -> keys_ok s' -> clean s'.
Proof.
  intros [H1 H2 HP H3 H4 [r0 H5] H6] E Hq Hp Eb Hm Et El K. constructor; auto.
  - intros n' r. rewrite E. destruct (N.eqb_spec n' n) as [->|_]; [intro X; inversion X; subst r'; exact Hq | apply H2].
  - intros n' r. rewrite E. destruct (N.eqb_spec n' n) as [->|_]; [intro X; inversion X; subst r'; exact Hp | apply HP].
  - intros k' m'. rewrite Eb. intro Hin. apply In_aset in Hin.
    destruct Hin as [X|Hin]; [inversion X; subst m'; exact Hm | eapply H3, Hin].
  - rewrite El. exact H4.
  - rewrite E. destruct (N.eqb (self c) n); eauto.
Qed.

Lemma clean_refute s me acc : clean s -> lk s (self c) = Some me -> below_max acc -> below_max (linc s) ->
  clean (refute c s me acc).
Proof.
  intros Hc L Ba Bl. destruct (refute_outranks s acc Ba Bl) as [_ O].
  apply (clean_write s _ (self c) (bumped me (refute_inc s acc)) (kaddr (raddr me))
                     (BAlive (refute_inc s acc) (self c) (raddr me) (rmeta me) (rvsn me))).
  - exact Hc.
  - apply lk_refute.
  - exact (cl_recs _ Hc _ _ L).
  - intros _. cbn. lia.
  - reflexivity.
  - cbn. lia.
  - exact (cl_timers _ Hc).
  - reflexivity.
  - apply refute_keys, Hc.
Qed.

Lemma score_set_bq s k m : score (set_bq s k m) = score s. Proof. reflexivity. Qed.

Lemma quiet_recorded {s k r r' m ts evs} : recorded c s k r r' m ts evs -> quiet_call s k -> timers s = [] ->
  quiet_rec (call_name k) r' /\ (rst r' = Alive -> (0 < rinc r')%N) /\ clean_msg m /\ ts = [] /\ Forall ev_quiet evs.
Proof.
  intros Hr Hq T. unfold quiet_rec.
  destruct Hr as [inc name from from' r _ _ _ Ef | | inc name addr meta vsn b r _ _ _ _];
    cbn [quiet_call call_name clean_msg rst rinc] in Hq |- *; [|contradiction|]; rewrite T.
  - destruct Hq as [-> [D _]]. replace from' with name by (rewrite Ef; destruct (_ && _); reflexivity).
    rewrite N.eqb_refl. repeat split; auto. discriminate.
  - repeat split; try tauto. destruct (dead_or_left _); [|destruct (negb _)]; repeat constructor.
Qed.

(* A quiet claim is no suspicion, so it is ignored, refuted (an alive claim about the node itself) or recorded, for an
   unknown member over the placeholder; and no timer runs, so ignoring it changes nothing and recording it starts none. *)
Lemma do_call_clean s k : clean s -> quiet_call s k ->
  clean (fst (do_call c s k)) /\ Forall ev_quiet (snd (do_call c s k)).
Proof.
  intros Hc Hq. pose proof (do_call_keys c s k (cl_keys _ Hc)) as K. pose proof (cl_timers _ Hc) as T.
  destruct (call_outcome c s k) as [Es Ee | inc name addr meta vsn b -> Ln _ _ | me Hn FL Hb L _ Es Ee | r r' m ts L Hr Es
                                   | inc name from r sA -> | inc name from r sA ->]; try contradiction.
  - rewrite (clean_touch s _ Hc) in Es. assert (E : fst (do_call c s k) = s) by tauto. rewrite E.
    split; [exact Hc|]. destruct Ee as [->|[r [a ->]]]; repeat constructor.
  - assert (Ns : name <> self c) by (intros ->; destruct (cl_self _ Hc); congruence).
    destruct (alive_unknown_cases c s inc name addr meta vsn b Ln Ns (proj1 Hq)) as [E|[r' [m [ts [evs [Hr E]]]]]];
      rewrite E in *; cbn [fst snd] in *; [auto|].
    destruct (quiet_recorded Hr Hq T) as [Q1 [Q2 [Q3 [-> Q5]]]]. split; [|exact Q5].
    apply (clean_write s _ name r' (kname name) m); auto.
    intro n'. rewrite lk_commit, lk_place by exact Ln. destruct (N.eqb n' name); reflexivity.
  - rewrite Es, Ee, (clean_touch s _ Hc). rewrite Hfixed in FL. cbn [andb] in FL.
    split; [|destruct (dead_or_left _); repeat constructor].
    destruct k as [i n a mt v b| |i n f]; cbn [quiet_call call_name call_inc] in *;
      [subst b | contradiction | destruct Hq as [_ [_ Lv]]; specialize (Lv Hn); congruence].
    apply clean_refute; tauto.
  - destruct (quiet_recorded Hr Hq T) as [Q1 [Q2 [Q3 [-> Q5]]]]. rewrite Es in *. split; [|exact Q5].
    apply (clean_write s _ (call_name k) r' (kname (call_name k)) m); auto. apply lk_commit.
Qed.

Lemma fire_due_clean fuel target s evs :
  timers s = [] -> fire_due fuel c target s evs = (set_now s target, evs).
Proof. intro T. destruct fuel; cbn [fire_due]; [reflexivity|]. rewrite T. reflexivity. Qed.

Lemma clean_set_now s t : clean s -> clean (set_now s t).
Proof. intro Hc. apply (clean_same s); auto. apply Hc. Qed.

(* what Leave and UpdateNode do once the flag, or the counter, is set: the claim about the node itself,
   then the wait for its broadcast *)
Lemma call_wait_clean w s k : clean s -> quiet_call s k ->
  let '(s', evs) := wait_bcast c w (do_call c s k) in clean s' /\ Forall ev_quiet evs.
Proof.
  intros Hc Hq. destruct (do_call_clean s k Hc Hq) as [P1 P2]. destruct (do_call c s k) as [s1 e1]. cbn [fst snd] in *.
  unfold wait_bcast. destruct (any_alive_other c s1); [|auto].
  rewrite fire_due_clean by apply P1. auto using clean_set_now.
Qed.

Lemma do_reap_clean s : clean s -> clean (do_reap c s).
Proof.
  intros [H1 H2 HP H3 H4 [r0 H5] H6]. constructor; auto.
  - intros n r L. eapply H2, lk_reap_some, L; assumption.
  - intros n r L. eapply HP, lk_reap_some, L; assumption.
  - exists r0. apply reap_keeps_self; assumption.
  - apply NoDup_map_filter, H6.
Qed.

(* C04 (one node): fed no accusation, a node holding none never produces one.  The health score can
   only move through a refutation of an alive claim about the node itself (alive_self_refuted). *)
Theorem step_clean s o :
  clean s -> benign s o ->
  let '(s', evs) := step c s o in
  clean s' /\ Forall ev_quiet evs /\ (leaving s = true -> leaving s' = true)
  /\ match o with OLeave _ => leaving s' = true | _ => True end.
Proof.
  intros Hc Hb.
  enough (clean (fst (step c s o)) /\ Forall ev_quiet (snd (step c s o))) as [P1 P2].
  { (* the flag is the business of no claim *)
    pose proof (step_keeps_leaving c s o) as Lm.
    assert (Lo : match o with OLeave _ => leaving (fst (step c s o)) = true | _ => True end)
      by (destruct o; try exact I; apply leave_sets_leaving).
    destruct (step c s o). auto. }
  destruct (op_call c o) as [k|] eqn:Ek; [rewrite (step_op_call c s o k Ek); exact (do_call_clean s k Hc (benign_quiet s o k Hb Ek))|].
  assert (Same : clean s /\ Forall ev_quiet []) by auto.
  destruct Hb as [Bl Hb]. destruct (cl_self _ Hc) as [r0 L0].
  destruct o; try discriminate Ek; try contradiction; cbn [step].
  - cbn [op_call] in Ek. destruct (is_allowed c src); [destruct (is_allowed c addr); [discriminate|]|]; exact Same.
  - rewrite fire_due_clean by apply Hc. split; [apply clean_set_now, Hc | constructor].
  - split; [apply do_reap_clean, Hc | constructor].
  - destruct (leaving s) eqn:Lv; [exact Same|]. change (alookup (self c) (recs (set_leaving s))) with (lk s (self c)). rewrite L0.
    pose proof (call_wait_clean w (set_leaving s) (CDead (rinc r0) (self c) (self c))) as P. cbn [do_call] in P.
    destruct (wait_bcast c w _) as [s2 e2]. apply P; [apply (clean_same s); auto | cbn; auto].
  - change (alookup (self c) (recs (bump_linc s))) with (lk s (self c)). rewrite L0.
    pose proof (call_wait_clean w (bump_linc s) (CAlive (linc (bump_linc s)) (self c) (raddr r0) meta (self_vsn c) true)) as P.
    cbn [do_call] in P. destruct (wait_bcast c w _) as [s2 e2].
    apply P; [apply (clean_same s); auto; apply Hc | rewrite linc_bump by exact Bl; split; [lia | discriminate]].
Qed.

(* what a clean node holds and says *)
Theorem clean_no_accusation s : clean s ->
  timers s = [] /\
  (forall n r, lk s n = Some r -> rst r <> Suspect /\ rst r <> Dead) /\
  (forall k m, In (k, m) (bq s) -> match m with BSuspect _ _ _ => False | BDead _ n f => f = n | _ => True end).
Proof.
  intros [H1 H2 _ H3 _ _ _]. split; [exact H1|]. split.
  - intros n r L. destruct (H2 n r L) as [E|[E _]]; rewrite E; split; discriminate.
  - intros k m Hin. specialize (H3 k m Hin). destruct m; cbn in *; auto. destruct H3; auto.
Qed.
End Node.

Lemma clean_mono (dep dep' : N -> bool) c s :
  (forall n, dep n = true -> dep' n = true) -> clean dep c s -> clean dep' c s.
Proof.
  intros M [H1 H2 HP H3 H4 H5 H6]. constructor; auto.
  - intros n r L. destruct (H2 n r L) as [E|[E D]]; [left; exact E | right; split; [exact E | apply M; exact D]].
  - intros k m Hin. specialize (H3 k m Hin). destruct m; cbn in *; auto. destruct H3 as [E D]. split; [exact E | apply M; exact D].
Qed.

Lemma boot_clean dep c meta :
  vsn_bad (self_vsn c) = false -> is_allowed c (self_addr c) = true -> clean dep c (boot c meta).
Proof.
  intros Hv A. rewrite boot_eq by assumption.
  constructor; unfold lk, keys_ok; cbn [timers recs bq leaving alookup map fst].
  - reflexivity.
  - intros n r. destruct (N.eqb n (self c)); [|discriminate]. intro X; inversion X. left. reflexivity.
  - intros n r. destruct (N.eqb n (self c)); [|discriminate]. intro X; inversion X. cbn. lia.
  - intros k m [X|[]]. inversion X. cbn. lia.
  - discriminate.
  - rewrite N.eqb_refl. eauto.
  - repeat constructor. intros [].
Qed.

(* without failed probes and accusations the health score can move only when a node processes an alive
   claim about itself (and then only if it has to refute it: alive_self_refuted, alive_stale_self) *)
Lemma do_alive_score c s inc name addr meta vsn :
  let '(s', evs) := do_alive c s inc name addr meta vsn false in
  score s' = score s \/ (name = self c /\ leaving s = false).
Proof.
  pose proof (outcome_score c s _ _ _ (alive_outcome c s inc name addr meta vsn false)) as H.
  destruct (do_alive c s inc name addr meta vsn false) as [s' evs] eqn:E. destruct H as [H|H]; [left; exact H|].
  cbn in H. destruct (leaving s) eqn:Lv; [left | auto].
  unfold do_alive in E. rewrite Lv, H, N.eqb_refl in E. inversion E. reflexivity.
Qed.
