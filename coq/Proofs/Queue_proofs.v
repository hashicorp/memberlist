(* Queue_proofs.v — proofs about Model/Queue.v (the repaired behaviour, fixed = true). *)
From Coq Require Import Permutation Sorted.
From VF Require Import Base Queue.

Local Open Scope N_scope.

Definition lt_item (a b : item) : Prop := less a b = true.

(* [less] is the lexicographic order on (transmits up, length down, id down);
   every fact about it below is read off this characterisation. *)
Lemma less_spec a b : less a b = true <->
  tr a < tr b \/ tr a = tr b /\ (len b < len a \/ len a = len b /\ id b < id a).
Proof.
  unfold less.
  destruct (N.ltb_spec (tr a) (tr b)); [split; [lia | reflexivity]|].
  destruct (N.ltb_spec (tr b) (tr a)); [split; [discriminate | lia]|].
  destruct (N.ltb_spec (len b) (len a)); [split; [lia | reflexivity]|].
  destruct (N.ltb_spec (len a) (len b)); [split; [discriminate | lia]|].
  rewrite N.ltb_lt. lia.
Qed.

Lemma less_irrefl a : less a a = false.
Proof. apply not_true_iff_false. rewrite less_spec. lia. Qed.

Lemma less_trans a b c : less a b = true -> less b c = true -> less a c = true.
Proof. rewrite !less_spec. lia. Qed.

Lemma less_asym a b : less a b = true -> less b a = false.
Proof. rewrite <- not_true_iff_false, !less_spec. lia. Qed.

Lemma less_total a b : id a <> id b -> less a b = true \/ less b a = true.
Proof. rewrite !less_spec. lia. Qed.

Lemma less_tr a b : less a b = true -> tr a <= tr b.
Proof. rewrite less_spec. lia. Qed.

Lemma key_eq_spec a b : key_eq a b = true <-> tr a = tr b /\ len a = len b /\ id a = id b.
Proof.
  unfold key_eq. rewrite andb_true_iff, !negb_true_iff, <- !not_true_iff_false, !less_spec. lia.
Qed.

Lemma key_eq_id a b : key_eq a b = true -> id a = id b.
Proof. rewrite key_eq_spec. tauto. Qed.

Lemma key_eq_refl a : key_eq a a = true.
Proof. unfold key_eq. rewrite less_irrefl. reflexivity. Qed.

Lemma less_not_key_eq a b : less a b = true -> key_eq a b = false.
Proof. intro H. unfold key_eq. rewrite H. reflexivity. Qed.

Lemma less_not_key_eq' a b : less a b = true -> key_eq b a = false.
Proof. intro H. unfold key_eq. rewrite H. apply andb_false_r. Qed.

Lemma find_split {A} (p : A -> bool) l x : find p l = Some x ->
  exists l1 l2, l = l1 ++ x :: l2 /\ p x = true /\ forall y, In y l1 -> p y = false.
Proof.
  induction l as [|a l IH]; simpl; [discriminate|].
  destruct (p a) eqn:Pa; intro H.
  - inversion H; subst. exists [], l. repeat split; auto. intros y [].
  - destruct (IH H) as (l1 & l2 & -> & Px & Hn). exists (a :: l1), l2. repeat split; auto.
    intros y [<-|Hy]; auto.
Qed.

Lemma last_In {A} (l : list A) d : l <> [] -> In (last l d) l.
Proof. intro H. destruct (exists_last H) as (l' & a & ->). rewrite last_last. apply in_elt. Qed.

Lemma NoDup_app_remove_l {A} (l l' : list A) : NoDup (l ++ l') -> NoDup l'.
Proof. induction l as [|a l IH]; simpl; intro H; [exact H|]. inversion H; auto. Qed.

Lemma NoDup_app_disjoint {A} (l l' : list A) x : NoDup (l ++ l') -> In x l -> ~ In x l'.
Proof.
  induction l as [|a l IH]; simpl; intros H Hx Hx'; [exact Hx|].
  apply NoDup_cons_iff in H as [Ha H]. destruct Hx as [->|Hx]; [|exact (IH H Hx Hx')].
  apply Ha, in_or_app. right. exact Hx'.
Qed.

Lemma filter_split {A} (p : A -> bool) l : Permutation l (filter p l ++ filter (fun x => negb (p x)) l).
Proof.
  induction l as [|a l IH]; simpl; [constructor|]. destruct (p a); simpl.
  - apply perm_skip, IH.
  - apply Permutation_cons_app, IH.
Qed.

Definition sorted (l : list item) : Prop := StronglySorted lt_item l.

(* An element of a sorted list is above everything before it; btree.Delete takes
   out exactly it, and what is left is sorted. *)
Lemma sorted_mid l1 x l2 : sorted (l1 ++ x :: l2) ->
  delete x (l1 ++ x :: l2) = l1 ++ l2 /\ sorted (l1 ++ l2) /\ forall y, In y l1 -> less y x = true.
Proof.
  induction l1 as [|a l1 IH]; cbn [app delete]; intro S; apply StronglySorted_inv in S as [S Ha].
  - rewrite key_eq_refl. repeat split; [exact S | intros y []].
  - destruct (IH S) as (E & S' & Hb).
    apply Forall_app in Ha as [Ha1 Ha2]. apply Forall_cons_iff in Ha2 as [Hx Ha2].
    rewrite (less_not_key_eq' _ _ Hx), E. repeat split.
    + constructor; [exact S' | apply Forall_app; split; assumption].
    + intros y [<-|Hy]; auto.
Qed.

Lemma delete_in l x : sorted l -> In x l ->
  sorted (delete x l) /\ Permutation l (x :: delete x l).
Proof.
  intros S Hx. apply in_split in Hx as (l1 & l2 & ->). destruct (sorted_mid _ _ _ S) as (-> & S' & _).
  split; [exact S' | apply Permutation_sym, Permutation_middle].
Qed.

Lemma insert_fresh x l : sorted l -> ~ In (id x) (map id l) ->
  sorted (insert x l) /\ Permutation (x :: l) (insert x l).
Proof.
  induction l as [|y l IH]; cbn [insert map]; intros S Hn.
  - split; [repeat constructor | apply Permutation_refl].
  - destruct (less x y) eqn:Lxy.
    + split; [|apply Permutation_refl]. apply StronglySorted_inv in S as HS. destruct HS as [_ Hy].
      constructor; [exact S|]. constructor; [exact Lxy|].
      apply (Forall_impl _ (fun z => less_trans x y z Lxy) Hy).
    + (* ids differ, so the order decides: x goes somewhere after y *)
      destruct (less_total x y) as [C|C]; [intro E; apply Hn; left; symmetry; exact E | congruence |].
      rewrite C. apply StronglySorted_inv in S as [S Hy].
      destruct (IH S) as [S' P']; [intro I; apply Hn; right; exact I|].
      split; [|rewrite <- P'; apply perm_swap].
      constructor; [exact S'|]. apply (Permutation_Forall P'). constructor; assumption.
Qed.

Lemma fold_insert_fresh re : forall l, sorted l -> NoDup (map id (re ++ l)) ->
  sorted (fold_left (fun l x => insert x l) re l) /\ Permutation (re ++ l) (fold_left (fun l x => insert x l) re l).
Proof.
  induction re as [|x re IH]; cbn [fold_left app map]; intros l S ND.
  - split; [exact S | apply Permutation_refl].
  - apply NoDup_cons_iff in ND as HN. destruct HN as [Hnx _].
    destruct (insert_fresh x l S) as [S1 P1].
    { intro I. apply Hnx. rewrite map_app. apply in_or_app. right. exact I. }
    assert (Px : Permutation (x :: re ++ l) (re ++ insert x l)) by (rewrite <- P1; apply Permutation_middle).
    destruct (IH (insert x l) S1) as [S2 P2]; [rewrite <- Px; exact ND|].
    split; [exact S2 | rewrite <- P2; exact Px].
Qed.

Lemma sorted_min_max l x : sorted l -> In x l -> min_tr l <= tr x <= max_tr l.
Proof.
  intros S Hx. split.
  - destruct l as [|a l]; [destruct Hx|]. destruct Hx as [<-|Hx]; [reflexivity|].
    apply StronglySorted_inv in S as [_ Ha]. rewrite Forall_forall in Ha. apply less_tr, Ha, Hx.
  - unfold max_tr. destruct (exists_last (l := l)) as (l0 & z & ->); [intros ->; destruct Hx|].
    rewrite last_last. apply in_app_or in Hx as [Hx|[<-|[]]]; [|reflexivity].
    apply less_tr. apply (sorted_mid l0 z [] S). exact Hx.
Qed.

Local Open Scope Z_scope.

(* what [greedy] asks of x once [used] bytes are taken: there is room for one more message, and x fits
   in it.  The model's [fits] is the second half, for one tier. *)
Definition fitsZ (ov lim used : Z) (x : item) : Prop := 0 < lim - used - ov /\ Z.of_N (len x) <= lim - used - ov.

Lemma fitsZ_mono ov lim used used' x : used <= used' -> fitsZ ov lim used' x -> fitsZ ov lim used x.
Proof. unfold fitsZ. lia. Qed.

Lemma greedy_take ov lim used x l :
  fitsZ ov lim used x -> greedy ov lim used (x :: l) = x :: greedy ov lim (used + ov + Z.of_N (len x)) l.
Proof.
  intros [H1 H2]. simpl.
  destruct (Z.leb_spec (lim - used - ov) 0); [lia|].
  destruct (Z.leb_spec (Z.of_N (len x)) (lim - used - ov)); [reflexivity|lia].
Qed.

Lemma greedy_skip_prefix ov lim used p q :
  (forall x, In x p -> ~ fitsZ ov lim used x) -> greedy ov lim used (p ++ q) = greedy ov lim used q.
Proof.
  induction p as [|a p IH]; simpl; intro H; [reflexivity|].
  destruct (Z.leb_spec (lim - used - ov) 0) as [Hf|Hf].
  - destruct q; simpl; [reflexivity|]. destruct (Z.leb_spec (lim - used - ov) 0); [reflexivity|lia].
  - destruct (Z.leb_spec (Z.of_N (len a)) (lim - used - ov)) as [Hl|Hl].
    + exfalso. apply (H a); [left; reflexivity | split; lia].
    + apply IH. intros x Hx. apply H. right. exact Hx.
Qed.

Lemma greedy_none ov lim used l :
  (forall x, In x l -> ~ fitsZ ov lim used x) -> greedy ov lim used l = [].
Proof.
  intro H. rewrite <- (app_nil_r l). rewrite greedy_skip_prefix by exact H. reflexivity.
Qed.

Lemma greedy_perm ov lim : forall l used, exists r, Permutation l (greedy ov lim used l ++ r).
Proof.
  induction l as [|a l IH]; intro used; simpl.
  - exists []. constructor.
  - destruct (lim - used - ov <=? 0); [exists (a :: l); reflexivity|].
    destruct (Z.of_N (len a) <=? lim - used - ov).
    + destruct (IH (used + ov + Z.of_N (len a))) as [r P]. exists r. apply perm_skip, P.
    + destruct (IH used) as [r P]. exists (a :: r). apply Permutation_cons_app, P.
Qed.

Lemma greedy_sublist ov lim : forall l used x, In x (greedy ov lim used l) -> In x l.
Proof.
  intros l used x Hx. destruct (greedy_perm ov lim l used) as [r P]. rewrite P. apply in_or_app. left. exact Hx.
Qed.

(* Taking the first item that fits and selecting from what is left of the whole
   list gives the same as the one pass: what was skipped before still does not fit. *)
Lemma greedy_pick ov lim used l1 k l2 : 0 <= ov ->
  (forall x, In x l1 -> ~ fitsZ ov lim used x) -> fitsZ ov lim used k ->
  greedy ov lim used (l1 ++ k :: l2) = k :: greedy ov lim (used + ov + Z.of_N (len k)) (l1 ++ l2).
Proof.
  intros Hov Hpre Hk. rewrite (greedy_skip_prefix _ _ used) by exact Hpre. rewrite greedy_take by exact Hk.
  rewrite greedy_skip_prefix; [reflexivity|].
  intros x Hx Fx. apply (Hpre x Hx). revert Fx. apply fitsZ_mono. lia.
Qed.

Lemma fits_spec t free x : fits t free x = true <-> (tr x = t /\ Z.of_N (len x) <= free).
Proof.
  unfold fits. rewrite andb_true_iff, N.eqb_eq, Z.leb_le. tauto.
Qed.

Definition due (tl : Z) (x : item) : bool := (tl <=? Z.of_N (tr x) + 1).

Definition minus (l T : list item) : list item :=
  filter (fun x => negb (existsb (fun y => N.eqb (id x) (id y)) T)) l.

(* Result of the loop, generalised over the accumulated state: it takes out of the queue
   the one-pass selection.  The loop invariant: every queued item that still fits lies in a
   tier still to be scanned. *)
Lemma get_loop_spec : forall (fuel : nat) ov lim tl t maxT used s r f re,
  0 <= ov ->
  sorted (items s) ->
  (forall x, In x (items s) -> fitsZ ov lim used x -> (t <= tr x <= maxT)%N) ->
  (length (items s) + N.to_nat (maxT + 1 - t) < fuel)%nat ->
  let G := greedy ov lim used (items s) in
  get_loop true fuel ov lim tl t maxT used s r f re =
    Some (delete_all true G s,
          r ++ map uid G,
          f ++ map uid (filter (due tl) G),
          re ++ map bump (filter (fun x => negb (due tl x)) G)).
Proof.
  induction fuel as [|fuel IH]; intros ov lim tl t maxT used [l idg ini] r f re Hov S Hl Hfuel; [cbn in Hfuel; lia|].
  cbn [items] in *. cbn [get_loop items].
  destruct (N.ltb_spec maxT t) as [Ht|Ht]; [|destruct (Z.leb_spec (lim - used - ov) 0) as [Hf|Hf]].
  (* past the last tier, or no room left: nothing fits *)
  1, 2: rewrite (greedy_none ov lim used l);
    [ cbn; rewrite !app_nil_r; reflexivity
    | intros x Hx Fx; specialize (Hl x Hx Fx); destruct Fx; lia ].
  destruct (find (fits t (lim - used - ov)) l) as [k|] eqn:F.
  - (* k is the first item of tier t that fits, and nothing before it fits:
       earlier tiers by the invariant, tier t by the choice of k *)
    destruct (find_split _ _ _ F) as (l1 & l2 & -> & Hk & Hn). apply fits_spec in Hk as [Kt Kl].
    destruct (sorted_mid _ _ _ S) as (Hdel & S' & Hb).
    assert (Hpre : forall x, In x l1 -> ~ fitsZ ov lim used x).
    { intros x Hx Fx. pose proof (Hl x (in_or_app _ _ _ (or_introl Hx)) Fx) as N.
      pose proof (less_tr _ _ (Hb x Hx)) as Lx. specialize (Hn x Hx).
      rewrite <- not_true_iff_false, fits_spec in Hn. apply Hn. destruct Fx. split; lia. }
    rewrite (greedy_pick ov lim used l1 k l2 Hov Hpre) by (split; lia).
    cbn [delete_all]. unfold delete_item. cbn [items idgen inited]. rewrite Hdel.
    set (used' := used + ov + Z.of_N (len k)).
    assert (Hl' : forall x, In x (l1 ++ l2) -> fitsZ ov lim used' x -> (t <= tr x <= maxT)%N).
    { intros x Hx Fx. apply (Hl x (incl_app_app (incl_refl l1) (incl_tl k (incl_refl l2)) x Hx)).
      revert Fx. apply fitsZ_mono. unfold used'. lia. }
    assert (Hfuel' : (length (l1 ++ l2) + N.to_nat (maxT + 1 - t) < fuel)%nat).
    { rewrite app_length in *. cbn [length] in Hfuel. lia. }
    assert (IH' := fun r f re => IH ov lim tl t maxT used' (mkQ (l1 ++ l2) idg ini) r f re Hov S' Hl' Hfuel').
    cbn [items] in IH'. change (tl <=? Z.of_N (tr k) + 1) with (due tl k). cbn [filter map].
    destruct (due tl k); cbn [negb map]; rewrite IH', <- !app_assoc; reflexivity.
  - (* nothing of tier t fits: on to the next tier *)
    apply (IH ov lim tl (t + 1)%N maxT used (mkQ l idg ini) r f re Hov S); [|cbn [items]; lia].
    intros x Hx Fx. specialize (Hl x Hx Fx). apply (find_none _ _ F) in Hx.
    rewrite <- not_true_iff_false, fits_spec in Hx. destruct Fx. lia.
Qed.

Local Open Scope N_scope.

Record Inv (s : qstate) : Prop := mkInv {
  inv_sorted : sorted (items s);
  inv_ids : forall x, In x (items s) -> id x <= idgen s;
  inv_nodup : NoDup (map id (items s)) }.

Lemma Inv_nil idg ini : Inv (mkQ [] idg ini).
Proof. split; cbn; [constructor | intros x [] | constructor]. Qed.

Lemma Inv_q0 : Inv q0.
Proof. apply Inv_nil. Qed.

(* Beside sortedness the invariant only speaks of the ids, and survives taking some of them ([m]) away. *)
Lemma Inv_shrink s l m idg ini : Inv s -> sorted l ->
  Permutation (map id (items s)) (m ++ map id l) -> idgen s <= idg -> Inv (mkQ l idg ini).
Proof.
  intros [S I ND] Sl P Hle. split; cbn [items idgen].
  - exact Sl.
  - intros x Hx. assert (Hi : In (id x) (map id (items s))).
    { rewrite P. apply in_or_app. right. apply in_map, Hx. }
    apply in_map_iff in Hi as (y & E & Hy). specialize (I y Hy). lia.
  - rewrite P in ND. exact (NoDup_app_remove_l _ _ ND).
Qed.

Lemma delete_item_spec x s : Inv s -> In x (items s) ->
  Inv (delete_item true x s) /\ Permutation (items s) (x :: items (delete_item true x s)).
Proof.
  intros HI Hx. destruct (delete_in _ x (inv_sorted s HI) Hx) as [S P]. split; [|exact P].
  exact (Inv_shrink s _ [id x] _ _ HI S (Permutation_map id P) (N.le_refl _)).
Qed.

Lemma delete_all_spec xs : forall s r, Inv s -> Permutation (items s) (xs ++ r) ->
  Inv (delete_all true xs s) /\ Permutation (items (delete_all true xs s)) r
  /\ idgen (delete_all true xs s) = idgen s.
Proof.
  induction xs as [|x xs IH]; intros s r HI P; cbn [delete_all app] in *.
  - auto.
  - destruct (delete_item_spec x s HI) as [HI1 P1]; [rewrite P; left; reflexivity|].
    apply (IH _ r HI1), (Permutation_cons_inv (a := x)). rewrite <- P1. exact P.
Qed.

Lemma Inv_insert x s ini : Inv s -> (forall y, In y (items s) -> id y < id x) -> id x <= idgen s ->
  Inv (mkQ (insert x (items s)) (idgen s) ini) /\ Permutation (x :: items s) (insert x (items s)).
Proof.
  intros [S I ND] Hlt Hle.
  assert (Fresh : ~ In (id x) (map id (items s))).
  { intro H. apply in_map_iff in H as (y & E & Hy). specialize (Hlt y Hy). lia. }
  destruct (insert_fresh x _ S Fresh) as [S' P]. split; [|exact P].
  split; cbn [items idgen].
  - exact S'.
  - intros y Hy. rewrite <- P in Hy. destruct Hy as [<-|Hy]; auto.
  - rewrite <- P. constructor; assumption.
Qed.

Lemma reset_if_idle_inv s : Inv s -> Inv (reset_if_idle true s) /\ items (reset_if_idle true s) = items s.
Proof.
  intros HI. unfold reset_if_idle. destruct (items s) eqn:E; [|split; assumption].
  split; [apply Inv_nil | reflexivity].
Qed.

Lemma bump_id x : id (bump x) = id x. Proof. reflexivity. Qed.
Lemma bump_uid x : uid (bump x) = uid x. Proof. reflexivity. Qed.

(* Under a negative overhead taking an item can make room: one passed over may fit later, which the
   loop, searching its tier afresh each time, notices and the one pass does not (lengths 9 and 2,
   overhead -3, limit 5: the loop hands out both, [greedy] the second only). *)
Definition wf_op (o : op) : Prop := match o with Get ov _ _ => (0 <= ov)%Z | _ => True end.
Definition queued_of (o : op) : list N := match o with Queue u _ _ => [u] | _ => [] end.

(* bump keeps id and uid: under either, a selection T beside a remainder r splits into the completed
   items, those to re-insert, and r *)
Lemma split_due {B} (g : item -> B) tl T r : (forall x, g (bump x) = g x) ->
  Permutation (map g (T ++ r))
              (map g (filter (due tl) T) ++ map g (map bump (filter (fun x => negb (due tl x)) T) ++ r)).
Proof.
  intro Hb. rewrite !map_app, app_assoc. apply Permutation_app_tail.
  rewrite map_map, (map_ext _ _ Hb), <- map_app. apply Permutation_map, filter_split.
Qed.

(* Get hands out the one-pass selection G, completes those of G that are due, and puts the others
   back one tier up; r is what was not selected *)
Lemma do_get_spec ov lim tl s : Inv s -> (0 <= ov)%Z ->
  let G := greedy ov lim 0 (items s) in
  exists s' r,
    do_get true ov lim tl s = Some (s', map uid G, map uid (filter (due tl) G))
    /\ Inv s'
    /\ Permutation (items s) (G ++ r)
    /\ Permutation (items s') (map bump (filter (fun x => negb (due tl x)) G) ++ r).
Proof.
  (* the ids queued are those of the completed items, of those put back and of what was not selected ([split_due]):
     hence the ids put back are fresh for the insertion, and the completed ones are the [m] of [Inv_shrink] *)
  intros HI Hov. unfold do_get.
  destruct (items s) as [|a l] eqn:E.
  - exists s, []. cbn. rewrite E. auto.
  - rewrite <- E. clear a l E. pose proof (sorted_min_max (items s)) as Hmm.
    rewrite get_loop_spec; [|exact Hov | apply HI | intros x Hx _; apply Hmm; [apply HI | exact Hx] | unfold get_fuel; lia].
    cbv zeta. cbn [app]. set (T := greedy ov lim 0%Z (items s)).
    destruct (greedy_perm ov lim (items s) 0%Z) as [r P]. fold T in P.
    destruct (delete_all_spec T s r HI P) as (HI1 & P1 & I1). rewrite <- P1 in P. clear r P1.
    set (s1 := delete_all true T s) in *.
    set (re := map bump (filter (fun x => negb (due tl x)) T)).
    pose proof (inv_nodup _ HI) as ND. rewrite P, (split_due id tl T _ bump_id) in ND. fold re in ND.
    destruct (fold_insert_fresh re (items s1)) as [S2 P2]; [apply HI1 | exact (NoDup_app_remove_l _ _ ND) |].
    destruct (reset_if_idle_inv (mkQ (fold_left (fun l x => insert x l) re (items s1)) (idgen s1) (inited s1))) as [HI3 E3].
    { apply (Inv_shrink s _ (map id (filter (due tl) T))); [exact HI | exact S2 | | rewrite I1; reflexivity].
      rewrite <- P2, P. apply split_due, bump_id. }
    eexists _, (items s1). split; [reflexivity|]. split; [exact HI3|]. split; [exact P|].
    rewrite E3. symmetry. exact P2.
Qed.

(* the queued broadcasts that a new one of kind k invalidates *)
Definition superseded (k : kind) (l : list item) : list item :=
  match k with
  | Named 0 => []
  | Named n => match find (is_named n) l with Some o => [o] | None => [] end
  | Unique => []
  | Plain g => filter (is_plain_grp g) l
  end.

Lemma superseded_sub k l : exists r, Permutation l (superseded k l ++ r).
Proof.
  assert (Nil : exists r, Permutation l ([] ++ r)) by (exists l; reflexivity).
  destruct k as [[|p]| |g]; cbn [superseded]; try exact Nil.
  - destruct (find _ l) as [o|] eqn:F; [|exact Nil]. apply find_some in F as [Ho _].
    apply in_split in Ho as (l1 & l2 & ->). exists (l1 ++ l2). symmetry. exact (Permutation_middle l1 l2 o).
  - eexists. apply filter_split.
Qed.

Lemma do_queue_eq u l k s :
  do_queue true u l k s =
  let s2 := delete_all true (superseded k (items s)) (mkQ (items s) (idgen s + 1) true) in
  (mkQ (insert (mkItem u 0 l (idgen s + 1) k) (items s2)) (idgen s2) true, map uid (superseded k (items s))).
Proof.
  unfold do_queue. destruct k as [[|p]| |g]; cbn [items idgen superseded]; try reflexivity.
  destruct (find (is_named (N.pos p)) (items s)); reflexivity.
Qed.

Lemma do_queue_fin u l k s : snd (do_queue true u l k s) = map uid (superseded k (items s)).
Proof. rewrite do_queue_eq. reflexivity. Qed.

Lemma do_queue_spec u l k s : Inv s ->
  let '(s', f) := do_queue true u l k s in
  Inv s' /\ Permutation (map uid (items s) ++ [u]) (map uid (items s') ++ f).
Proof.
  intros HI. rewrite do_queue_eq. cbv zeta.
  set (lb := mkItem u 0 l (idgen s + 1) k). set (rm := superseded k (items s)).
  destruct (superseded_sub k (items s)) as [r Pr]. fold rm in Pr.
  (* the deletions already run under the new generator value, which bounds the old ids strictly *)
  destruct (delete_all_spec rm (mkQ (items s) (idgen s + 1) true) r) as (HI2 & P2 & I2); [|exact Pr|].
  { apply (Inv_shrink s _ []); [exact HI | apply HI | reflexivity | lia]. }
  rewrite <- P2 in Pr. clear r P2. set (s2 := delete_all true rm _) in *. cbn [idgen] in I2.
  destruct (Inv_insert lb s2 true HI2) as [HI3 P3].
  { intros y Hy. assert (Hy' : In y (items s)) by (rewrite Pr; apply in_or_app; right; exact Hy).
    apply (inv_ids s HI) in Hy'. cbn. lia. }
  { rewrite I2. reflexivity. }
  split; [exact HI3|]. cbn [items].
  rewrite <- P3, Pr, (Permutation_app_comm _ [u]), map_app. cbn. apply perm_skip, Permutation_app_comm.
Qed.

Lemma prune_loop_spec fuel : forall k s f, Inv s ->
  let '(s', f') := prune_loop true fuel k s f in
  exists g, f' = f ++ g /\ Inv s' /\ Permutation (map uid (items s)) (map uid (items s') ++ g).
Proof.
  induction fuel as [|fuel IH]; intros k [its idg ini] f HI;
    assert (Stop : exists g, f = f ++ g /\ Inv (mkQ its idg ini) /\ Permutation (map uid its) (map uid its ++ g))
      by (exists []; rewrite !app_nil_r; auto);
    cbn [prune_loop items]; [exact Stop|].
  destruct (k <? Z.of_nat (length its))%Z; [|exact Stop].
  destruct its as [|x0 l0]; [exact Stop|]. set (m := last (x0 :: l0) x0).
  destruct (delete_item_spec m _ HI) as [HI' P1]; [apply last_In; discriminate|]. cbn [items] in P1.
  specialize (IH k _ (f ++ [uid m]) HI').
  destruct (prune_loop true fuel k _ (f ++ [uid m])) as [s' f'].
  destruct IH as (g & -> & HI2 & P2). exists (uid m :: g). rewrite <- app_assoc.
  repeat split; try apply HI2.
  rewrite P1. cbn [map]. rewrite P2. apply Permutation_middle.
Qed.

Theorem step_spec s o : Inv s -> wf_op o ->
  exists s' x, step true s o = Some (s', x) /\ Inv s' /\ pan x = false
    /\ nq x = N.of_nat (length (items s'))
    /\ Permutation (map uid (items s) ++ queued_of o) (map uid (items s') ++ fin x).
Proof.
  intros HI W. destruct o as [u l k|ov lim tl|k|]; cbn [step queued_of]; rewrite ?app_nil_r.
  - pose proof (do_queue_spec u l k s HI) as H. destruct (do_queue true u l k s) as [s' f].
    destruct H as [HI' P]. eexists _, _. repeat apply conj; try reflexivity; assumption.
  - destruct (do_get_spec ov lim tl s HI W) as (s' & r & -> & HI' & P & P').
    eexists _, _. repeat apply conj; try reflexivity; [exact HI'|]. cbn [fin].
    rewrite (Permutation_map uid P), (Permutation_map uid P'), (split_due uid tl _ r bump_uid).
    apply Permutation_app_comm.
  - cbn [negb andb].
    pose proof (prune_loop_spec (length (items s)) k s [] HI) as H.
    destruct (prune_loop true (length (items s)) k s []) as [s' f].
    destruct H as (g & -> & HI' & P). destruct (reset_if_idle_inv s' HI') as [HI2 E2].
    eexists _, _. repeat apply conj; try reflexivity; [exact HI2 | cbn [fin]; rewrite E2; exact P].
  - eexists _, _. repeat apply conj; try reflexivity. apply Inv_nil.
Qed.

Theorem get_step_spec s ov lim tl : Inv s -> (0 <= ov)%Z ->
  exists s', step true s (Get ov lim tl) =
    Some (s', mkOut (map uid (greedy ov lim 0 (items s)))
                    (map uid (filter (due tl) (greedy ov lim 0 (items s))))
                    (qlen s') false) /\ Inv s'.
Proof.
  intros HI Hov. destruct (do_get_spec ov lim tl s HI Hov) as (s' & _ & E & HI' & _).
  exists s'. cbn [step]. rewrite E. split; [reflexivity | exact HI'].
Qed.

Definition all_fin (xs : list out) : list N := concat (map fin xs).
Definition all_queued (ops : list op) : list N := concat (map queued_of ops).

Theorem run_spec : forall ops s, Inv s -> Forall wf_op ops ->
  exists s' xs, run true s ops = Some (s', xs) /\ Inv s' /\ length xs = length ops
    /\ Forall (fun x => pan x = false) xs
    /\ Permutation (map uid (items s) ++ all_queued ops) (map uid (items s') ++ all_fin xs).
Proof.
  induction ops as [|o ops IH]; intros s HI W; cbn [run].
  - exists s, []. cbn. rewrite !app_nil_r. auto.
  - apply Forall_cons_iff in W as [Wo Wops].
    destruct (step_spec s o HI Wo) as (s1 & x & -> & HI1 & Px & _ & P1). rewrite Px.
    destruct (IH s1 HI1 Wops) as (s2 & xs & -> & HI2 & L2 & F2 & P2).
    exists s2, (x :: xs). repeat apply conj; [reflexivity | exact HI2 | cbn; congruence | constructor; assumption |].
    unfold all_queued, all_fin in *. cbn [map concat].
    rewrite app_assoc, P1, <- app_assoc, (Permutation_app_comm (fin x)), app_assoc, P2, <- app_assoc.
    apply Permutation_app_head, Permutation_app_comm.
Qed.

Theorem reachable_inv ops : Forall wf_op ops ->
  exists s xs, run true q0 ops = Some (s, xs) /\ Inv s.
Proof.
  intro W. destruct (run_spec ops q0 Inv_q0 W) as (s & xs & E & HI & _). exists s, xs. split; assumption.
Qed.

Theorem history_accounting ops : Forall wf_op ops ->
  exists s xs, run true q0 ops = Some (s, xs) /\ length xs = length ops
    /\ Forall (fun x => pan x = false) xs
    /\ Permutation (all_queued ops) (map uid (items s) ++ all_fin xs).
Proof.
  intro W. destruct (run_spec ops q0 Inv_q0 W) as (s & xs & E & HI & L & F & P).
  exists s, xs. repeat split; auto.
Qed.

Corollary exactly_once ops : Forall wf_op ops -> NoDup (all_queued ops) ->
  exists s xs, run true q0 ops = Some (s, xs) /\
    NoDup (map uid (items s) ++ all_fin xs) /\
    forall u, In u (all_queued ops) <->
              (In u (map uid (items s)) /\ ~ In u (all_fin xs)) \/ (In u (all_fin xs) /\ ~ In u (map uid (items s))).
Proof.
  intros W ND. destruct (history_accounting ops W) as (s & xs & E & _ & _ & P).
  exists s, xs. apply (Permutation_NoDup P) in ND. repeat split; [exact E | exact ND | |].
  - intro Hu. apply (Permutation_in _ P), in_app_or in Hu. pose proof (NoDup_app_disjoint _ _ u ND). tauto.
  - intro Hu. apply (Permutation_in _ (Permutation_sym P)), in_or_app. tauto.
Qed.

Local Open Scope Z_scope.

Definition total (ov : Z) (l : list item) : Z := fold_right (fun x a => ov + Z.of_N (len x) + a) 0 l.

(* nothing is said of an empty selection: [used] may be above [lim] to begin with *)
Lemma greedy_bound ov lim : forall l used, 0 <= ov ->
  greedy ov lim used l = [] \/ used + total ov (greedy ov lim used l) <= lim.
Proof.
  induction l as [|x l IH]; intros used Hov; simpl; [left; reflexivity|].
  destruct (Z.leb_spec (lim - used - ov) 0); [left; reflexivity|].
  destruct (Z.leb_spec (Z.of_N (len x)) (lim - used - ov)).
  - right. simpl. destruct (IH (used + ov + Z.of_N (len x)) Hov) as [E|B].
    + rewrite E. simpl. lia.
    + lia.
  - apply IH. exact Hov.
Qed.

(* the defects of the pinned tree, as witnesses on the unrepaired model *)
Example silent_loss_refuted :
  exists s xs, run false q0 [Queue 1 4 Unique; Get 0 100 8; Queue 2 4 Unique; Get 0 4 8] = Some (s, xs)
    /\ map uid (items s) = [2%N] /\ all_fin xs = [].
Proof. eexists _, _. vm_compute. repeat split. Qed.

Example silent_loss_getfree_refuted :
  exists s xs, run false q0 [Queue 1 4 (Named 1); Queue 2 4 (Named 1); Queue 3 4 (Named 2); Queue 4 4 (Named 3)] = Some (s, xs)
    /\ map uid (items s) = [4%N; 3%N] /\ all_fin xs = [1%N].
Proof. eexists _, _. vm_compute. repeat split. Qed.

Example prune_panic_refuted :
  exists s xs, run false q0 [Prune 0] = Some (s, xs) /\ map pan xs = [true].
Proof. eexists _, _. vm_compute. repeat split. Qed.

(* the first of these histories on the repaired model *)
Example silent_loss_fixed :
  exists s xs, run true q0 [Queue 1 4 Unique; Get 0 100 8; Queue 2 4 Unique; Get 0 4 8] = Some (s, xs)
    /\ map uid (items s) = [2%N; 1%N] /\ all_fin xs = [].
Proof. eexists _, _. vm_compute. repeat split. Qed.
