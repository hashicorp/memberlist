(* Core_inv.v — the invariant of every reachable node state, and the induction principle over the
   operations of Model/Core.v from which the per-step theorems behind C01, C02, C05, C07, C08, C18 follow. *)
From VF Require Import Base Core Core_lemmas.

Local Open Scope Z_scope.

Section WithCfg.
Variable c : cfg.
Hypothesis Hfixed : fixed c = true.

(* live suspicion timers exist only for suspected members *)
Definition TInv (s : nstate) : Prop :=
  forall t, In t (timers s) -> tlive t = true -> exists r, lk s (tname t) = Some r /\ rst r = Suspect.
(* C02: a running node lists itself alive, at an incarnation it has drawn *)
Definition SelfInv (s : nstate) : Prop :=
  leaving s = false -> exists r, lk s (self c) = Some r /\ rst r = Alive /\ (rinc r <= linc s)%N.
(* C18: every record carries an allowed address *)
Definition AllowedInv (s : nstate) : Prop :=
  forall n r, lk s n = Some r -> is_allowed c (raddr r) = true.

Record Inv (s : nstate) : Prop := mkInv { inv_t : TInv s; inv_self : SelfInv s; inv_allowed : AllowedInv s }.

(* the invariant in full: with member names unique *)
Definition FInv (s : nstate) : Prop := Inv s /\ keys_ok s.

(* an incarnation below the largest representable one, 2^32-1: a refutation that answers it does not wrap
   (refute_outranks) *)
Definition below_max (x : N) : Prop := (x < two32 - 1)%N.

(* all incarnations strictly below the largest representable value: the quantifier of C01/C02 *)
Definition all_below (s : nstate) : Prop :=
  below_max (linc s) /\ forall n r, lk s n = Some r -> below_max (rinc r).

(* ... and no incarnation at the maximum: what holds at every state an operation passes through under [op_ok] *)
Definition GInv (s : nstate) : Prop := FInv s /\ all_below s.

Definition alive_wf (s : nstate) (inc name : N) (b : bool) : Prop :=
  b = true -> name = self c /\ (inc <= linc s)%N.

(* what is known of a claim when it is handled: only the node itself announces with [bootstrap] set, at an
   incarnation it has drawn; and the no-wrap side condition *)
Definition call_wf (s : nstate) (k : call) : Prop :=
  match k with CAlive inc name _ _ _ b => alive_wf s inc name b | _ => True end.

Definition call_ok (s : nstate) (k : call) : Prop := all_below s /\ below_max (call_inc k) /\ call_wf s k.

Lemma TInv_live s n : TInv s -> live_timer n (timers s) <> None -> exists r, lk s n = Some r /\ rst r = Suspect.
Proof.
  intros HT H. destruct (live_timer n (timers s)) as [t|] eqn:E; [|contradiction].
  apply live_timer_some in E. destruct E as [E1 [<- E3]]. auto.
Qed.

Lemma TInv_no_live s n r : TInv s -> lk s n = Some r -> rst r <> Suspect -> no_live n (timers s).
Proof.
  intros HT L Hs. unfold no_live. destruct (live_timer n (timers s)) eqn:E; [|reflexivity].
  destruct (TInv_live s n HT) as [r' [L' S']]; congruence.
Qed.

Lemma TInv_no_live_none s n : TInv s -> lk s n = None -> no_live n (timers s).
Proof.
  intros HT L. unfold no_live. destruct (live_timer n (timers s)) eqn:E; [|reflexivity].
  destruct (TInv_live s n HT) as [r' [L' S']]; congruence.
Qed.

(* Every claim keeps each part of the invariant on its own.  This one whatever else holds of the node or of the
   claim: a record is written together with the timer list, and a timer comes to run only for a name recorded Suspect *)
Lemma confirmed_TInv {s inc name from sA} : TInv s -> live_timer name (timers s) <> None -> confirmed s inc name from sA -> TInv sA.
Proof.
  intros HT LT [ts [-> Hts]] u Hu Lu. destruct (Hts u Hu Lu) as [Hin| ->]; [apply HT; assumption | exact (TInv_live s name HT LT)].
Qed.

Lemma outcome_TInv s k s' evs : outcome c s k s' evs -> TInv s -> TInv s'.
Proof.
  induction 1 as [s k s' evs Hs _ | s k s' evs inc name addr meta vsn b _ Ln _ _ IH | s k s' evs me _ _ _ _ _ -> _
                 | s k s' evs r r' m ts _ Hr -> | s k s' evs inc name from r sA _ _ _ LT HC -> _
                 | s k s' evs inc name from r sA _ _ _ LT HC _ _ IH]; intro HT.
  - destruct Hs as [->| ->]; [exact HT|]. intros u Hu Lu. apply HT; [apply (touch_timers _ _ _ Hu Lu) | exact Lu].
  - apply IH. intros u Hu Lu. destruct (HT u Hu Lu) as [r [L A]]. exists r. rewrite lk_place by exact Ln.
    destruct (N.eqb_spec (tname u) name); [congruence | auto].
  - intros u Hu Lu. destruct (touch_timers s (self c) u Hu Lu) as [Hin N1].
    rewrite lk_refute. apply N.eqb_neq in N1. rewrite N1. apply HT; assumption.
  - intros u Hu Lu. rewrite lk_commit. destruct (recorded_live Hr u Hu Lu) as [[Hin N1]|[E [S _]]].
    + apply N.eqb_neq in N1. rewrite N1. apply HT; assumption.
    + rewrite E, N.eqb_refl. eauto.
  - exact (confirmed_TInv HT LT HC).
  - apply IH, (confirmed_TInv HT LT HC).
Qed.

Lemma do_call_TInv s k : TInv s -> TInv (fst (do_call c s k)).
Proof. exact (outcome_TInv s k _ _ (call_outcome c s k)). Qed.

(* A node that lists itself keeps doing so: a refutation gives its record and its counter the same new
   incarnation, and the only claim about itself a running node records is its own announcement, which
   is the one place where something is asked of the claim *)
Lemma place_SelfInv {s n} r : SelfInv s -> lk s n = None -> SelfInv (place s n r).
Proof.
  intros HS Ln Lv. destruct (HS Lv) as [me [L AI]]. exists me. split; [|exact AI].
  rewrite lk_place by exact Ln. destruct (N.eqb_spec (self c) n); [congruence | exact L].
Qed.

Lemma confirmed_SelfInv {s inc name from sA} : SelfInv s -> confirmed s inc name from sA -> SelfInv sA.
Proof. intros HS [ts [-> _]]. exact HS. Qed.

Lemma outcome_SelfInv s k s' evs : outcome c s k s' evs -> SelfInv s -> call_wf s k -> SelfInv s'.
Proof.
  induction 1 as [s k s' evs Hs _ | s k s' evs inc name addr meta vsn b _ Ln _ _ IH | s k s' evs me _ _ _ L _ -> _
                 | s k s' evs r r' m ts L Hr -> | s k s' evs inc name from r sA _ _ _ _ HC -> _
                 | s k s' evs inc name from r sA _ _ _ _ HC _ _ IH]; intros HS Hw.
  - destruct Hs as [->| ->]; exact HS.
  - apply IH; [apply place_SelfInv; assumption | exact Hw].
  - intro Lv. destruct (HS Lv) as [r [L' [A _]]]. assert (r = me) by congruence. subst r.
    rewrite lk_refute, N.eqb_refl. eexists. split; [reflexivity|]. split; [exact A | apply N.le_refl].
  - intro Lv. change (leaving s = false) in Lv. rewrite lk_commit.
    destruct (N.eqb_spec (self c) (call_name k)) as [E|_]; [|exact (HS Lv)].
    exists r'. split; [reflexivity|]. symmetry in E.
    destruct Hr as [? ? ? ? ? _ _ Hl _|? ? ? ? ? _ _ Ns _ _|? ? ? ? ? ? ? _ _ _ Hb]; cbn [call_name rst rinc] in *;
      [specialize (Hl E); congruence | contradiction | destruct (Hw (Hb E)); auto].
  - exact (confirmed_SelfInv HS HC).
  - apply IH; [exact (confirmed_SelfInv HS HC) | exact I].
Qed.

(* An address is only ever recorded if the allow-list admits it *)
Lemma place_AllowedInv {s n} addr meta vsn : AllowedInv s -> lk s n = None -> is_allowed c addr = true ->
  AllowedInv (place s n (new_rec addr meta vsn)).
Proof.
  intros HA Ln Al n' r. rewrite lk_place by exact Ln. destruct (N.eqb n' n); [|apply HA]. intro E; inversion E. exact Al.
Qed.

Lemma outcome_AllowedInv s k s' evs : outcome c s k s' evs -> AllowedInv s -> AllowedInv s'.
Proof.
  induction 1 as [s k s' evs Hs _ | s k s' evs inc name addr meta vsn b _ Ln Al _ IH | s k s' evs me _ _ _ L _ -> _
                 | s k s' evs r r' m ts L Hr -> | s k s' evs inc name from r sA _ _ _ _ [ts [-> _]] -> _
                 | s k s' evs inc name from r sA _ _ _ _ [ts [-> _]] _ _ IH]; intro HA.
  - destruct Hs as [->| ->]; exact HA.
  - apply IH, place_AllowedInv; assumption.
  - intros n r. rewrite lk_refute. destruct (N.eqb n (self c)); [|apply HA]. intro E; inversion E. exact (HA _ _ L).
  - intros n r0. rewrite lk_commit. destruct (N.eqb n (call_name k)); [|apply HA]. intro E; inversion E; subst r0.
    destruct Hr as [| |? ? ? ? ? ? ? _ _ [<-|[Al _]] _]; cbn [raddr]; auto; exact (HA _ _ L).
  - exact HA.
  - apply IH, HA.
Qed.

Lemma place_below {s n} addr meta vsn : all_below s -> lk s n = None -> all_below (place s n (new_rec addr meta vsn)).
Proof.
  intros [B1 B2] Ln. split; [exact B1|].
  intros n' r. rewrite lk_place by exact Ln. destruct (N.eqb n' n); [|apply B2].
  intro E; inversion E. unfold below_max, two32. cbn. lia.
Qed.

Lemma place_call_ok {s n} addr meta vsn {k} : call_ok s k -> lk s n = None -> call_ok (place s n (new_rec addr meta vsn)) k.
Proof. intros [HB Hk] Ln. split; [apply place_below; assumption | exact Hk]. Qed.

Lemma confirmed_call_ok {s inc name from sA r} :
  all_below s -> lk s name = Some r -> confirmed s inc name from sA -> call_ok sA (CDead (rinc r) name (self c)).
Proof. intros [B1 B2] L [ts [-> _]]. split; [split|]; cbn; eauto. Qed.

Lemma outcome_Inv s k s' evs : outcome c s k s' evs -> Inv s -> call_wf s k -> Inv s'.
Proof.
  intros H [HT HS HA] Hw. split; [eapply outcome_TInv | eapply outcome_SelfInv | eapply outcome_AllowedInv]; eassumption.
Qed.

Lemma do_call_FInv s k : FInv s -> call_ok s k -> FInv (fst (do_call c s k)).
Proof.
  intros [HI K] [_ [_ Hw]]. split; [exact (outcome_Inv s k _ _ (call_outcome c s k) HI Hw) | apply do_call_keys, K].
Qed.

Lemma lk_reap s n : keys_ok s ->
  lk (do_reap c s) n = match lk s n with
                       | Some r => if dead_or_left (rst r) && (gtd c <? now s - rsince r) && negb (N.eqb n (self c))
                                   then None else Some r
                       | None => None
                       end.
Proof.
  intro K. unfold do_reap, lk; cbn [recs]. rewrite (alookup_filter _ _ _ K), Hfixed.
  destruct (alookup n (recs s)) as [r|]; [|reflexivity]. cbn [fst snd andb].
  destruct (dead_or_left (rst r) && (gtd c <? now s - rsince r)), (N.eqb n (self c)); reflexivity.
Qed.

Lemma lk_reap_some s n r : keys_ok s -> lk (do_reap c s) n = Some r -> lk s n = Some r.
Proof.
  intros K. rewrite lk_reap by exact K. destruct (lk s n); [|discriminate].
  destruct (_ && _ && _); [discriminate | auto].
Qed.

(* reaping drops no Suspect record *)
Lemma do_reap_TInv s : TInv s -> TInv (do_reap c s).
Proof.
  intros HT t Ht Lt. destruct (HT t Ht Lt) as [r [L A]]. exists r.
  split; [apply reap_keeps_live; [exact L | rewrite A; reflexivity] | exact A].
Qed.

Lemma do_reap_FInv s : FInv s -> FInv (do_reap c s).
Proof.
  intros [[HT HS HA] K]. split; [split|].
  - apply do_reap_TInv, HT.
  - intro Hl. destruct (HS Hl) as [r [L AI]]. exists r. split; [apply reap_keeps_self; assumption | exact AI].
  - intros n r L. eapply HA, lk_reap_some, L. exact K.
  - apply NoDup_map_filter, K.
Qed.

(* Firing due timers, and waiting for a broadcast while they fire: bookkeeping and suspicion timeouts,
   i.e. death claims signed by the node at the incarnation of a record it holds as Suspect.
   [P] is any property of states and of the events delivered so far that these preserve. *)
Lemma fire_due_ind (P : nstate -> list event -> Prop) :
  (forall s e t, P s e -> P (set_now s t) e) ->
  (forall s e t, P s e -> P (set_timers s (remove_timer t (timers s))) e) ->
  (forall s e n r, lk s n = Some r -> rst r = Suspect -> P s e ->
     P (fst (do_dead c s (rinc r) n (self c))) (e ++ snd (do_dead c s (rinc r) n (self c)))) ->
  forall fuel target s e, P s e -> P (fst (fire_due fuel c target s e)) (snd (fire_due fuel c target s e)).
Proof.
  intros P_now P_timers P_timeout.
  induction fuel as [|fuel IH]; intros target s e H; cbn [fire_due]; [apply P_now, H|].
  destruct (earliest_due target (timers s)) as [t|]; [|apply P_now, H].
  set (s1 := set_now _ _). assert (H1 : P s1 e) by apply P_now, P_timers, H.
  unfold timer_fire. fold (lk s1 (tname t)).
  destruct (lk s1 (tname t)) as [r|] eqn:L; [|rewrite app_nil_r; apply IH, H1].
  destruct (st_eqb (rst r) Suspect && Z.eqb (rsince r) (tct t)) eqn:E; [|rewrite app_nil_r; apply IH, H1].
  assert (A : rst r = Suspect) by (destruct (rst r); try discriminate; reflexivity).
  pose proof (P_timeout s1 e _ r L A H1) as H2.
  destruct (do_dead c s1 (rinc r) (tname t) (self c)) as [s2 e2]. apply IH, H2.
Qed.

Lemma wait_bcast_ind (P : nstate -> list event -> Prop) :
  (forall s e t, P s e -> P (set_now s t) e) ->
  (forall s e t, P s e -> P (set_timers s (remove_timer t (timers s))) e) ->
  (forall s e n r, lk s n = Some r -> rst r = Suspect -> P s e ->
     P (fst (do_dead c s (rinc r) n (self c))) (e ++ snd (do_dead c s (rinc r) n (self c)))) ->
  forall w s e, P s e -> P (fst (wait_bcast c w (s, e))) (snd (wait_bcast c w (s, e))).
Proof.
  intros H1 H2 H3 w s e H. unfold wait_bcast. destruct (any_alive_other c s); [apply fire_due_ind; assumption | exact H].
Qed.

(* Every operation is one claim handed to a handler ([op_call]), the reaping pass, or a sequence of
   things the node does of its own accord -- the suspicion timeout, the claims Leave and UpdateNode make
   about the node itself -- with bookkeeping in between. *)
Inductive own_call (s : nstate) : call -> Prop :=
| own_timeout n r : lk s n = Some r -> rst r = Suspect -> own_call s (CDead (rinc r) n (self c))
| own_leave r : leaving s = true -> lk s (self c) = Some r -> own_call s (CDead (rinc r) (self c) (self c))
| own_update r meta : lk s (self c) = Some r ->
    own_call s (CAlive (linc s) (self c) (raddr r) meta (self_vsn c) true).

(* Bookkeeping in operation [o] started from [s]: no record, queued message or event is touched.  The clock and
   the timer list move anywhere; the leave flag and the incarnation counter only as the first thing Leave and
   UpdateNode (or their first halves) do. *)
Inductive idle (o : op) (s : nstate) : nstate -> nstate -> Prop :=
| idle_now s1 t : idle o s s1 (set_now s1 t)
| idle_timer s1 t : idle o s s1 (set_timers s1 (remove_timer t (timers s1)))
| idle_leaving : o = OLeaveBegin \/ (exists w, o = OLeave w) -> idle o s s (set_leaving s)
| idle_linc : o = OIncBegin \/ (exists meta w, o = OUpdate meta w) -> idle o s s (bump_linc s).

Lemma linc_bump s : below_max (linc s) -> linc (bump_linc s) = (linc s + 1)%N.
Proof. intro B. unfold below_max, two32 in B. cbn. unfold two32. rewrite N.mod_small; lia. Qed.

Lemma idle_lk o s s1 s2 : idle o s s1 s2 -> forall n, lk s2 n = lk s1 n.
Proof. intros [ | | | ] n; reflexivity. Qed.

Lemma idle_TInv o s s1 s2 : idle o s s1 s2 -> TInv s1 -> TInv s2.
Proof.
  intros Hi HT u Hu. rewrite (idle_lk o s s1 s2 Hi). apply HT. destruct Hi; try exact Hu. apply filter_In in Hu. apply Hu.
Qed.

Definition op_ok (s : nstate) (o : op) : Prop :=
  all_below s /\
  match o with
  | OAlive inc name _ _ _ b => below_max inc /\ alive_wf s inc name b
  | OHandleAlive _ inc _ _ _ _ | OSuspect inc _ _ | ODead inc _ _ | OMerge _ inc _ _ _ _ | OLeaveCommit inc => below_max inc
  | OUpdate _ _ => below_max (linc s + 1)
  | _ => True
  end.

Lemma op_call_ok s o k : op_ok s o -> op_call c o = Some k -> call_ok s k.
Proof.
  intros [HB Hop] Ek. split; [exact HB|]. unfold call_wf. destruct o; cbn in Ek; try discriminate.
  - inversion Ek. exact Hop.
  - destruct (is_allowed c src && is_allowed c addr); inversion Ek. split; [exact Hop | intro; discriminate].
  - inversion Ek. auto.
  - inversion Ek. auto.
  - inversion Ek. destruct rs; cbn; (split; [exact Hop|]); trivial. intro; discriminate.
  - inversion Ek. auto.
Qed.

Lemma own_call_ok s k : all_below s -> own_call s k -> call_ok s k.
Proof.
  intros HB Hk. split; [exact HB|]. destruct HB as [B1 B2].
  destruct Hk as [n r L A | r Lv L | r meta L]; cbn [call_inc]; try (split; [eapply B2; exact L | exact I]).
  split; [exact B1 | intros _; split; [reflexivity | lia]].
Qed.

(* own actions only copy an incarnation the node already holds and are never refuted (a suspect is not
   the local node while it is running), so no incarnation grows *)
Lemma own_outcome_below s k s' evs :
  outcome c s k s' evs -> SelfInv s -> all_below s -> own_call s k -> all_below s'.
Proof.
  induction 1 as [s k s' evs [->| ->] _ | s k s' evs inc name addr meta vsn b -> Ln _ _ _ | s k s' evs me Hn FL Hb L _ -> _
                 | s k s' evs r r' m ts L Hr -> | s k s' evs inc name from r sA -> _ _ _ _ _ _
                 | s k s' evs inc name from r sA -> _ _ _ _ _ _ _]; intros HS HB Hk; try exact HB; try (inversion Hk; fail).
  - inversion Hk; subst. congruence.
  - exfalso. rewrite Hfixed in FL. destruct (HS FL) as [r [L' [A _]]].
    inversion Hk; subst; cbn in *; try congruence.
  - destruct (own_call_ok s k HB Hk) as [_ [Bi _]]. destruct HB as [B1 B2]. split; [exact B1|].
    intros n r0. rewrite lk_commit. destruct (N.eqb n (call_name k)); [|apply B2].
    intro E; inversion E; subst. destruct Hr; exact Bi.
Qed.

Lemma own_call_GInv s k : GInv s -> own_call s k -> GInv (fst (do_call c s k)).
Proof.
  intros [HF HB] Hk. split; [apply do_call_FInv; [exact HF | apply own_call_ok; assumption]|].
  exact (own_outcome_below s k _ _ (call_outcome c s k) (inv_self _ (proj1 HF)) HB Hk).
Qed.

Lemma idle_FInv o s s1 s2 : FInv s1 -> idle o s s1 s2 -> below_max (linc s1) -> FInv s2.
Proof.
  intros [[HT HS HA] K] Hi B. split; [split|destruct Hi; exact K].
  - exact (idle_TInv o s s1 s2 Hi HT).
  - destruct Hi as [s1 t|s1 t| |]; try exact HS; [intro; discriminate|].
    (* the counter does not wrap *)
    intro Lv. destruct (HS Lv) as [r [L [A I]]]. exists r. rewrite linc_bump by exact B. repeat split; auto. lia.
  - intros n r. rewrite (idle_lk o s s1 s2 Hi). apply HA.
Qed.

Lemma idle_GInv o s s1 s2 : GInv s1 -> idle o s s1 s2 -> below_max (linc s2) -> GInv s2.
Proof.
  intros [HF [B1 B2]] Hi B'. split; [exact (idle_FInv o s s1 s2 HF Hi B1)|]. split; [exact B'|].
  intros n r. rewrite (idle_lk o s s1 s2 Hi). apply B2.
Qed.

Lemma do_reap_GInv s : GInv s -> GInv (do_reap c s).
Proof.
  intros [HF [B1 B2]]. split; [apply do_reap_FInv, HF|]. split; [exact B1|].
  intros n r L. eapply B2, lk_reap_some, L. apply HF.
Qed.

(* with no invariant assumed, for theorems that have no no-wrap premise; it holds of the pinned code too *)
Theorem step_ind0 (P : nstate -> list event -> Prop) s o :
  (forall k, op_call c o = Some k -> P (fst (do_call c s k)) (snd (do_call c s k))) ->
  (o = OReap -> P (do_reap c s) []) ->
  (forall s1 e1 k, own_call s1 k -> P s1 e1 -> P (fst (do_call c s1 k)) (e1 ++ snd (do_call c s1 k))) ->
  (forall s1 e1 s2, idle o s s1 s2 -> P s1 e1 -> P s2 e1) ->
  (* UpdateNode (in the pinned code also Leave) on a node whose own record is gone: the one event no handler produces *)
  (forall s1 e1, lk s1 (self c) = None -> P s1 e1 -> P s1 (e1 ++ [EvPanic])) ->
  P s [] -> P (fst (step c s o)) (snd (step c s o)).
Proof.
  intros Hcall Hreap Hown Hidle Hpanic H0.
  assert (Now : forall s1 e1 t, P s1 e1 -> P (set_now s1 t) e1) by (intros s1 e1 t; apply Hidle; constructor).
  assert (Tm : forall s1 e1 t, P s1 e1 -> P (set_timers s1 (remove_timer t (timers s1))) e1)
    by (intros s1 e1 t; apply Hidle; constructor).
  assert (Out : forall s1 e1 n r, lk s1 n = Some r -> rst r = Suspect -> P s1 e1 ->
            P (fst (do_dead c s1 (rinc r) n (self c))) (e1 ++ snd (do_dead c s1 (rinc r) n (self c)))).
  { intros s1 e1 n r L A. apply (Hown s1 e1 _ (own_timeout s1 n r L A)). }
  pose proof (wait_bcast_ind P Now Tm Out) as Wait.
  destruct (op_call c o) as [k|] eqn:Ek; [rewrite (step_op_call c s o k Ek); apply Hcall; reflexivity|].
  destruct o; try discriminate; cbn [step].
  - (* alive gossip that fails the allow-list *)
    cbn [op_call] in Ek. destruct (is_allowed c src); [destruct (is_allowed c addr); [discriminate|]|]; exact H0.
  - apply (fire_due_ind P Now Tm Out), H0.
  - apply Hreap. reflexivity.
  - apply (Hidle s); [constructor; auto | exact H0].
  - apply (Hidle s); [constructor; auto | exact H0].
  - destruct (leaving s) eqn:Lv; [exact H0|].
    assert (P1 : P (set_leaving s) []) by (apply (Hidle s); [constructor; eauto | exact H0]).
    fold (lk (set_leaving s) (self c)). destruct (lk (set_leaving s) (self c)) as [r|] eqn:L; [|case (fixed c); [exact P1 | apply (Hpanic _ []); assumption]].
    pose proof (Hown _ _ _ (own_leave (set_leaving s) r eq_refl L) P1) as P2. cbn [do_call app] in P2.
    destruct (do_dead c (set_leaving s) (rinc r) (self c) (self c)) as [s2 e2]. apply Wait, P2.
  - assert (P1 : P (bump_linc s) []) by (apply (Hidle s); [constructor; eauto | exact H0]).
    fold (lk (bump_linc s) (self c)). destruct (lk (bump_linc s) (self c)) as [r|] eqn:L; [|apply (Hpanic _ []); assumption].
    pose proof (Hown _ _ _ (own_update (bump_linc s) r meta L) P1) as P2. cbn [do_call app] in P2.
    destruct (do_alive c (bump_linc s) (linc (bump_linc s)) (self c) (raddr r) meta (self_vsn c) true) as [s2 e2].
    apply Wait, P2.
Qed.

(* with the invariant at every state the node passes through on the way, under the no-wrap premise *)
Theorem step_ind (P : nstate -> list event -> Prop) s o :
  FInv s -> op_ok s o ->
  (forall k, op_call c o = Some k -> call_ok s k -> P (fst (do_call c s k)) (snd (do_call c s k))) ->
  (o = OReap -> P (do_reap c s) []) ->
  (forall s1 e1 k, GInv s1 -> own_call s1 k -> call_ok s1 k -> P s1 e1 ->
     P (fst (do_call c s1 k)) (e1 ++ snd (do_call c s1 k))) ->
  (forall s1 e1 s2, GInv s1 -> idle o s s1 s2 -> P s1 e1 -> P s2 e1) ->
  (forall s1 e1, lk s1 (self c) = None -> P s1 e1 -> P s1 (e1 ++ [EvPanic])) ->
  P s [] -> P (fst (step c s o)) (snd (step c s o)).
Proof.
  intros HF Hok Hcall Hreap Hown Hidle Hpanic H0. pose proof Hok as [HB Hop]. assert (G : GInv s) by (split; assumption).
  destruct (op_call c o) as [k|] eqn:Ek;
    [rewrite (step_op_call c s o k Ek); apply Hcall; [reflexivity | exact (op_call_ok s o k Hok Ek)]|].
  (* the first half of UpdateNode alone may leave the counter at the maximum: nothing follows it *)
  assert (D : o = OIncBegin \/ o <> OIncBegin) by (destruct o; (left; reflexivity) || (right; discriminate)).
  destruct D as [->|Ni]; [apply (Hidle s [] _ G); [constructor; auto | exact H0]|].
  apply (step_ind0 (fun s1 e1 => GInv s1 /\ P s1 e1)); [congruence | | | | |split; assumption].
  - intro E. split; [apply do_reap_GInv, G | apply Hreap, E].
  - intros s1 e1 k Hk [G1 P1]. split; [apply own_call_GInv; assumption|].
    apply Hown; [exact G1 | exact Hk | apply own_call_ok; [apply G1 | exact Hk] | exact P1].
  - intros s1 e1 s2 Hi [G1 P1]. split; [|exact (Hidle s1 e1 s2 G1 Hi P1)].
    apply (idle_GInv o s s1 s2 G1 Hi). destruct Hi as [? ?|? ?| |[E|[meta [w ->]]]]; try apply G1; [congruence|].
    rewrite linc_bump by apply HB. exact Hop.
  - intros s1 e1 Ln [G1 P1]. split; [exact G1 | apply Hpanic; assumption].
Qed.

Theorem step_FInv s o : FInv s -> op_ok s o -> FInv (fst (step c s o)).
Proof.
  intros HF Hok. apply (step_ind (fun s1 _ => FInv s1)); auto.
  - intros k _. apply do_call_FInv, HF.
  - intros _. apply do_reap_FInv, HF.
  - intros s1 _ k G Hk _ _. apply own_call_GInv; assumption.
  - intros s1 _ s2 G Hi _. exact (idle_FInv o s s1 s2 (proj1 G) Hi (proj1 (proj2 G))).
Qed.

Lemma step_keys s o : keys_ok s -> keys_ok (fst (step c s o)).
Proof.
  intro K. apply (step_ind0 (fun s1 _ => keys_ok s1)); auto using do_call_keys.
  - intros _. apply NoDup_map_filter, K.
  - intros s1 _ s2 Hi K1. destruct Hi; exact K1.
Qed.

Theorem step_TInv s o : TInv s -> TInv (fst (step c s o)).
Proof.
  intro HT. apply (step_ind0 (fun s1 _ => TInv s1)); auto.
  - intros k _. apply do_call_TInv, HT.
  - intros _. apply do_reap_TInv, HT.
  - intros s1 _ k _. apply do_call_TInv.
  - intros s1 _ s2. apply idle_TInv.
Qed.

Theorem run_TInv ops : forall s, TInv s -> TInv (fst (run c s ops)).
Proof.
  induction ops as [|o ops IH]; intros s HT; [exact HT|]. rewrite run_cons. apply IH, step_TInv, HT.
Qed.

Lemma step_keeps_leaving s o : leaving s = true -> leaving (fst (step c s o)) = true.
Proof.
  intro Lv. apply (step_ind0 (fun s1 _ => leaving s1 = true)); auto.
  - intros k _. rewrite do_call_leaving. exact Lv.
  - intros s1 _ k _ H1. rewrite do_call_leaving. exact H1.
  - intros s1 _ s2 Hi H1. destruct Hi; auto.
Qed.

Lemma leave_sets_leaving s w : leaving (fst (step c s (OLeave w))) = true.
Proof.
  destruct (leaving s) eqn:Lv; [apply step_keeps_leaving, Lv|]. cbn [step]. rewrite Lv.
  destruct (alookup (self c) (recs (set_leaving s))) as [r|]; [|reflexivity].
  pose proof (do_call_leaving c (set_leaving s) (CDead (rinc r) (self c) (self c))) as E. cbn [do_call] in E.
  destruct (do_dead c (set_leaving s) (rinc r) (self c) (self c)) as [s2 e2].
  apply (wait_bcast_ind (fun s1 _ => leaving s1 = true)); auto.
  intros s1 e n r1 _ _ H1. rewrite <- H1. exact (do_call_leaving c s1 (CDead (rinc r1) n (self c))).
Qed.

Lemma boot_eq meta :
  is_allowed c (self_addr c) = true -> vsn_bad (self_vsn c) = false ->
  boot c meta =
  mkS [(self c, mkRec 1 Alive (self_addr c) meta
                      (if (6 <=? length (self_vsn c))%nat then firstn 6 (self_vsn c)
                       else (if (5 <? length (self_vsn c))%nat then firstn 6 (self_vsn c) else vsn0)) 0)]
      1 [] 1 false 0 [(kname (self c), BAlive 1 (self c) (self_addr c) meta (self_vsn c))] 0.
Proof.
  intros Al Vb. unfold boot. cbn [step]. rewrite alive_unknown by (try assumption; reflexivity).
  unfold commit, place, set_timers, set_rec, set_bq.
  cbn [fst bump_linc init recs nnodes timers linc leaving score bq now app aset orphan map].
  rewrite N.eqb_refl. reflexivity.
Qed.

Lemma boot_FInv meta :
  is_allowed c (self_addr c) = true -> vsn_bad (self_vsn c) = false -> FInv (boot c meta).
Proof.
  intros Al Vb. rewrite boot_eq by assumption. split; [split|].
  - intros t [].
  - intros _. eexists. unfold lk; cbn [recs alookup]. rewrite N.eqb_refl. split; [reflexivity|]. cbn. split; [reflexivity | lia].
  - intros n r L. unfold lk in L; cbn [recs alookup] in L. destruct (N.eqb n (self c)); [|discriminate].
    inversion L; subst. exact Al.
  - unfold keys_ok. cbn. constructor; [intros [] | constructor].
Qed.

Fixpoint run_ok (s : nstate) (ops : list op) : Prop :=
  match ops with
  | [] => True
  | o :: ops' => op_ok s o /\ run_ok (fst (step c s o)) ops'
  end.

Theorem run_FInv ops : forall s, FInv s -> run_ok s ops -> FInv (fst (run c s ops)).
Proof.
  induction ops as [|o ops IH]; intros s HI HR; [exact HI|].
  destruct HR as [Ho HR]. rewrite run_cons. apply IH; [apply step_FInv; assumption | exact HR].
Qed.

End WithCfg.
