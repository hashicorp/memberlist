(* Core_props.v — the per-step and per-history theorems behind C01, C02, C07, C08, C18, and C09's hearsay. *)
From VF Require Import Base Core Core_lemmas Core_inv.

Local Open Scope Z_scope.

Section WithCfg.
Variable c : cfg.
Hypothesis Hfixed : fixed c = true.

Definition key_le (a b : rec) : Prop :=
  (rinc a < rinc b)%N \/ (rinc a = rinc b /\ (rank (rst a) <= rank (rst b))%N).

Lemma key_le_refl a : key_le a a.
Proof. right. split; [reflexivity | lia]. Qed.
Lemma key_le_trans a b d : key_le a b -> key_le b d -> key_le a d.
Proof. unfold key_le. intros [H1|[H1 H2]] [H3|[H3 H4]]; [left|left|left|right]; try lia. Qed.

Definition mono (s s' : nstate) : Prop :=
  forall n r, lk s n = Some r -> exists r', lk s' n = Some r' /\ key_le r r'.

Lemma mono_trans s1 s2 s3 : mono s1 s2 -> mono s2 s3 -> mono s1 s3.
Proof.
  intros H1 H2 n r L. destruct (H1 n r L) as [r2 [L2 K2]]. destruct (H2 n r2 L2) as [r3 [L3 K3]].
  exists r3. split; [exact L3 | eapply key_le_trans; eassumption].
Qed.
Lemma mono_same_lk s s' : (forall n, lk s' n = lk s n) -> mono s s'.
Proof. intros H n r L. exists r. rewrite H. split; [exact L | apply key_le_refl]. Qed.

(* the one permitted regression: a different address reclaiming a left / long-dead name *)
Definition reclaim_step (s s' : nstate) (name addr : N) : Prop :=
  exists r r', lk s name = Some r /\ lk s' name = Some r' /\ raddr r <> addr /\ raddr r' = addr
               /\ is_allowed c addr = true /\ can_replace c s r = true.

(* C01: no claim moves a member backwards; only an alive claim from another address can, by reclaiming the name *)
Definition reclaims (k : call) (s s' : nstate) (n : N) : Prop :=
  exists inc addr meta vsn b, k = CAlive inc n addr meta vsn b /\ reclaim_step s s' n addr.

Lemma outcome_mono s k s' evs : outcome c s k s' evs -> SelfInv c s -> call_ok c s k ->
  forall n r0, lk s n = Some r0 -> exists r', lk s' n = Some r' /\ (key_le r0 r' \/ reclaims k s s' n).
Proof.
  induction 1 as [s k s' evs Hs _ | s k s' evs inc name addr meta vsn b -> Ln Al _ IH | s k s' evs me Hn FL _ L Ge -> _
                 | s k s' evs r r' m ts L Hr -> | s k s' evs inc name from r sA -> L Ge LT HC -> _
                 | s k s' evs inc name from r sA -> L Ge LT HC A _ IH];
    intros HS Hk n r0 L0; pose proof Hk as [[B1 B2] [Bi Hw]].
  - exists r0. split; [destruct Hs as [->| ->]; exact L0 | left; apply key_le_refl].
  - assert (N1 : N.eqb n name = false) by (apply N.eqb_neq; congruence).
    destruct (IH (place_SelfInv c _ HS Ln) (place_call_ok c addr meta vsn Hk Ln) n r0)
      as [r' [L' [K|[i [a [m [v [b' [E _]]]]]]]]]; [rewrite lk_place, N1 by exact Ln; exact L0 | eauto |].
    inversion E; subst. rewrite N.eqb_refl in N1. discriminate.
  - rewrite lk_refute. destruct (N.eqb_spec n (self c)) as [->|_]; [|exists r0; split; [exact L0 | left; apply key_le_refl]].
    eexists. split; [reflexivity|]. left. left. cbn [bumped rinc].
    rewrite Hfixed in FL. destruct (HS FL) as [r [L' [_ I]]].
    destruct (refute_outranks (touch s (self c)) (call_inc k) Bi B1) as [_ O]. cbn [touch set_timers linc] in O.
    assert (r0 = r) by congruence. subst. lia.
  - rewrite lk_commit. destruct (N.eqb_spec n (call_name k)) as [->|_]; [|exists r0; split; [exact L0 | left; apply key_le_refl]].
    exists r'. split; [reflexivity|]. assert (r0 = r) by congruence. subst r0. unfold key_le.
    destruct Hr as [inc name from from' r Ge _ _ _ | inc name from r t Ge A _ _ _ | inc name addr meta vsn b r LS D Ha _];
      cbn [rinc rst call_name] in *.
    + left. destruct (N.eq_dec (rinc r) inc); [right | left; lia].
      destruct (N.eqb name from'), (rst r); cbn; lia.
    + left. rewrite A. destruct (N.eq_dec (rinc r) inc); [right; cbn | left]; lia.
    + destruct D as [Lt|[[-> Ge]|[Na [Al Cr]]]]; [left; left; exact Lt | |].
      * (* about ourselves: we are running, hence alive *)
        rewrite N.eqb_refl, andb_true_r in LS. destruct (HS LS) as [r1 [L1 [A1 _]]].
        assert (r1 = r) by congruence. subst r1. left. rewrite A1.
        destruct (N.eq_dec (rinc r) inc); [right; cbn | left]; lia.
      * right. exists inc, addr, meta, vsn, b. split; [reflexivity|]. exists r. eexists.
        rewrite lk_commit, N.eqb_refl. auto 7.
  - exists r0. split; [rewrite (confirmed_lk HC); exact L0 | left; apply key_le_refl].
  - destruct (IH (confirmed_SelfInv c HS HC) (confirmed_call_ok c (conj B1 B2) L HC) n r0)
      as [r' [L' [K|[i [a [m [v [b' [E _]]]]]]]]]; [rewrite (confirmed_lk HC); exact L0 | eauto | discriminate].
Qed.

Lemma do_call_mono s k : SelfInv c s -> call_ok c s k ->
  forall n r0, lk s n = Some r0 ->
    exists r', lk (fst (do_call c s k)) n = Some r' /\ (key_le r0 r' \/ reclaims k s (fst (do_call c s k)) n).
Proof. exact (outcome_mono s k _ _ (call_outcome c s k)). Qed.

(* what the node claims of its own accord never reclaims: its announcement carries its own address *)
Lemma own_call_mono s k : GInv c s -> own_call c s k -> mono s (fst (do_call c s k)).
Proof.
  intros G Hk n r L.
  destruct (do_call_mono s k (inv_self _ _ (proj1 (proj1 G))) (own_call_ok c s k (proj2 G) Hk) n r L) as [r' [L' [K|[i [a [m [v [b [E Rc]]]]]]]]];
    [exists r'; auto|].
  exfalso. destruct Hk as [| |r0 meta L0]; try discriminate. inversion E; subst.
  destruct Rc as [ra [rb [La [_ [Na _]]]]]. rewrite L0 in La. inversion La; subst. apply Na. reflexivity.
Qed.

(* C01: one step never moves a member backwards *)
Definition reapable (s : nstate) (r : rec) : Prop :=
  dead_or_left (rst r) = true /\ gtd c < now s - rsince r.

Theorem step_monotone s o : FInv c s -> op_ok c s o ->
  forall n r, lk s n = Some r ->
    let s' := fst (step c s o) in
    (exists r', lk s' n = Some r' /\
        (key_le r r' \/ (exists addr, reclaim_step s s' n addr /\
                          match o with OAlive _ n' a _ _ _ | OHandleAlive _ _ n' a _ _ | OMerge Alive _ n' a _ _ => n' = n /\ a = addr | _ => False end)))
    \/ (o = OReap /\ lk s' n = None /\ reapable s r /\ n <> self c).
Proof.
  intros HF Hok n r L. cbv zeta. pose proof HF as [HI K].
  destruct (op_call c o) as [k|] eqn:Ek.
  - left. rewrite (step_op_call c s o k Ek).
    destruct (do_call_mono s k (inv_self _ _ HI) (op_call_ok c s o k Hok Ek) n r L) as [r' [L' [K'|[i [a [m [v [b [-> Rc]]]]]]]]];
      exists r'; split; auto.
    right. exists a. split; [exact Rc|].
    destruct o; cbn in Ek; try discriminate; try (inversion Ek; auto).
    + destruct (is_allowed c src && is_allowed c addr); inversion Ek; auto.
    + destruct rs; inversion Ek; auto.
  - assert (D : o = OReap \/ o <> OReap) by (destruct o; (left; reflexivity) || (right; discriminate)).
    destruct D as [->|Nr].
    + cbn [step fst]. rewrite (lk_reap c Hfixed) by exact K. rewrite L.
      destruct (dead_or_left (rst r) && (gtd c <? now s - rsince r) && negb (N.eqb n (self c))) eqn:E;
        [|left; exists r; split; [reflexivity | left; apply key_le_refl]].
      right. apply andb_true_iff in E. destruct E as [E E3]. apply andb_true_iff in E. destruct E as [E1 E2].
      split; [reflexivity|]. split; [reflexivity|]. split; [split; [exact E1 | apply Z.ltb_lt, E2]|].
      apply N.eqb_neq, negb_true_iff, E3.
    + left. assert (M : mono s (fst (step c s o))).
      { apply (step_ind c Hfixed (fun s1 _ => mono s s1)); auto using mono_same_lk; try congruence.
        - intros s1 _ k G Hk _ M. eapply mono_trans; [exact M | apply own_call_mono; assumption].
        - intros s1 _ s2 _ Hi M. eapply mono_trans; [exact M | apply mono_same_lk, (idle_lk _ _ _ _ Hi)]. }
      destruct (M n r L) as [r' [L' K']]. exists r'. auto.
Qed.

(* C02: refutation outranks every accusation *)
Definition refutation_of (s s' : nstate) (r : rec) (accused : N) : Prop :=
  (accused < linc s')%N /\ (linc s < linc s')%N
  /\ lk s' (self c) = Some (mkRec (linc s') (rst r) (raddr r) (rmeta r) (rvsn r) (rsince r))
  /\ alookup (kaddr (raddr r)) (bq s') = Some (BAlive (linc s') (self c) (raddr r) (rmeta r) (rvsn r))
  /\ score s' = clamp_score c (score s + 1)
  /\ leaving s' = leaving s.

Lemma refute_effect s r accused :
  below_max accused -> below_max (linc s) -> refutation_of s (refute c s r accused) r accused.
Proof.
  intros B1 B2. destruct (refute_outranks s accused B1 B2) as [O1 O2].
  unfold refutation_of. rewrite linc_refute, lk_refute, N.eqb_refl. spl; auto.
  apply alookup_aset_same.
Qed.

Lemma self_no_live s r : Inv c s -> lk s (self c) = Some r -> rst r = Alive -> no_live (self c) (timers s).
Proof. intros HI L A. eapply TInv_no_live; [apply HI | exact L | rewrite A; discriminate]. Qed.

Theorem suspect_self_refuted s inc from r :
  Inv c s -> leaving s = false -> lk s (self c) = Some r -> rst r = Alive -> (rinc r <= inc)%N ->
  do_suspect c s inc (self c) from = (refute c s r inc, []).
Proof.
  intros HI Lf L A Ge. rewrite (suspect_about_self c s r Lf L A (self_no_live s r HI L A)).
  destruct (N.ltb_spec inc (rinc r)); [lia | reflexivity].
Qed.

Theorem dead_self_refuted s inc from r :
  Inv c s -> leaving s = false -> lk s (self c) = Some r -> rst r = Alive -> (rinc r <= inc)%N ->
  do_dead c s inc (self c) from = (refute c s r inc, []).
Proof.
  intros HI Lf L A Ge. rewrite (dead_about_self c s r Lf L A (self_no_live s r HI L A)).
  destruct (N.ltb_spec inc (rinc r)); [lia | reflexivity].
Qed.

Theorem alive_self_refuted s inc meta vsn r :
  Inv c s -> leaving s = false -> lk s (self c) = Some r -> rst r = Alive -> vsn_bad vsn = false ->
  ((rinc r < inc)%N \/ (inc = rinc r /\ (N.eqb meta (rmeta r) && Nlist_eqb vsn (rvsn r)) = false)) ->
  do_alive c s inc (self c) (raddr r) meta vsn false = (refute c s r inc, []).
Proof.
  intros HI Lf L A Vb D. rewrite (alive_about_self c s r Lf L A (self_no_live s r HI L A) inc meta vsn Vb).
  destruct D as [D|[-> D]].
  - destruct (N.ltb_spec inc (rinc r)); [lia|]. destruct (N.eqb_spec inc (rinc r)); [lia | reflexivity].
  - rewrite N.ltb_irrefl, N.eqb_refl. cbn [andb]. rewrite D. reflexivity.
Qed.

Lemma lk_members s n r : lk s n = Some r -> dead_or_left (rst r) = false -> In (n, (raddr r, rmeta r)) (members s).
Proof.
  intros L D. unfold members. apply in_map_iff. exists (n, r). split; [reflexivity|].
  apply filter_In. split; [apply alookup_some_in; exact L | cbn; rewrite D; reflexivity].
Qed.

Theorem self_listed ops s : FInv c s -> run_ok c s ops ->
  let s' := fst (run c s ops) in
  leaving s' = false ->
  exists r, lk s' (self c) = Some r /\ rst r = Alive /\ In (self c, (raddr r, rmeta r)) (members s').
Proof.
  intros HI HR. cbv zeta. pose proof (run_FInv c Hfixed ops s HI HR) as [[_ HS _] _]. intro Lf.
  destruct (HS Lf) as [r [L [A _]]]. exists r. split; [exact L|]. split; [exact A|].
  apply lk_members; [exact L | rewrite A; reflexivity].
Qed.

(* C07: the event stream is a faithful log of Members() *)
Definition view_t := N -> option (N * N).
Definition view (s : nstate) : view_t :=
  fun n => match lk s n with
           | Some r => if dead_or_left (rst r) then None else Some (raddr r, rmeta r)
           | None => None
           end.
Definition upd (v : view_t) (n : N) (x : option (N * N)) : view_t := fun k => if N.eqb k n then x else v k.

(* [ev_ok v evs v']: starting from the member set [v], every event is legal when it is
   delivered (join only of an absent member; leave/update only of a present one; a leave names
   the member as currently listed) and replaying them all yields exactly [v'] *)
Fixpoint ev_ok (v : view_t) (evs : list event) (v' : view_t) : Prop :=
  match evs with
  | [] => forall n, v n = v' n
  | EvJoin n a m :: es => v n = None /\ ev_ok (upd v n (Some (a, m))) es v'
  | EvLeave n a m :: es => v n = Some (a, m) /\ ev_ok (upd v n None) es v'
  | EvUpdate n a m :: es => (exists old, v n = Some old /\ old <> (a, m)) /\ ev_ok (upd v n (Some (a, m))) es v'
  | _ :: es => ev_ok v es v'
  end.

Lemma ev_ok_ext evs : forall v0 v v', (forall n, v0 n = v n) -> ev_ok v evs v' -> ev_ok v0 evs v'.
Proof.
  induction evs as [|e es IH]; intros v0 v v' E H; cbn [ev_ok] in *.
  - intro n. rewrite E. apply H.
  - destruct e as [n a m|n a m|n a m|n a b|]; try (eapply IH; eassumption).
    + destruct H as [H1 H2]. split; [rewrite E; exact H1|]. eapply IH; [|exact H2]. intro k. unfold upd. destruct (N.eqb k n); auto.
    + destruct H as [H1 H2]. split; [rewrite E; exact H1|]. eapply IH; [|exact H2]. intro k. unfold upd. destruct (N.eqb k n); auto.
    + destruct H as [[old [H1 H1']] H2]. split; [exists old; rewrite E; auto|]. eapply IH; [|exact H2]. intro k. unfold upd. destruct (N.eqb k n); auto.
Qed.

Lemma ev_ok_app e1 : forall v v1 e2 v2, ev_ok v e1 v1 -> ev_ok v1 e2 v2 -> ev_ok v (e1 ++ e2) v2.
Proof.
  induction e1 as [|e es IH]; intros v v1 e2 v2 H1 H2; cbn [app].
  - eapply ev_ok_ext; [|exact H2]. exact H1.
  - cbn [ev_ok] in *. destruct e as [n a m|n a m|n a m|n a b|]; try (eapply IH; eassumption);
      destruct H1 as [Ha Hb]; (split; [exact Ha | eapply IH; eassumption]).
Qed.

Lemma view_ext s s' : (forall n, lk s' n = lk s n) -> forall n, view s n = view s' n.
Proof. intros E n. unfold view. rewrite E. reflexivity. Qed.

Definition no_conflict (evs : list event) : list event :=
  filter (fun e => match e with EvConflict _ _ _ => false | _ => true end) evs.

Lemma no_conflict_app a b : no_conflict (a ++ b) = no_conflict a ++ no_conflict b.
Proof. unfold no_conflict. apply filter_app. Qed.

(* how a member is listed *)
Definition entry (r : rec) : option (N * N) := if dead_or_left (rst r) then None else Some (raddr r, rmeta r).

Lemma view_lk s n r : lk s n = Some r -> view s n = entry r.
Proof. intro L. unfold view. rewrite L. reflexivity. Qed.

(* the record of [n] becomes [r']: the view is updated at [n] ... *)
Lemma view_write s s' n r' : (forall n', lk s' n' = if N.eqb n' n then Some r' else lk s n') ->
  forall k, upd (view s) n (entry r') k = view s' k.
Proof. intros E k. unfold view, upd. rewrite E. destruct (N.eqb k n); reflexivity. Qed.

(* ... and stays as it is if [r'] is listed as [n] was *)
Lemma view_same s s' n r' : (forall n', lk s' n' = if N.eqb n' n then Some r' else lk s n') ->
  entry r' = view s n -> forall k, view s k = view s' k.
Proof.
  intros E Es k. rewrite <- (view_write s s' n r' E), Es. unfold upd. destruct (N.eqb_spec k n) as [->|_]; reflexivity.
Qed.

(* The events a claim delivers are exactly the change of the member set.  A node refutes an alive claim
   only while it is running, and then it lists itself: the one premise needed. *)
Lemma outcome_events s k s' evs : outcome c s k s' evs ->
  (forall i n a m v, k = CAlive i n a m v false -> SelfInv c s) ->
  ev_ok (view s) (no_conflict evs) (view s').
Proof.
  induction 1 as [s k s' evs Hs He | s k s' evs inc name addr meta vsn b -> Ln Al _ IH | s k s' evs me Hn FL Hb L Ge -> ->
                 | s k s' evs r r' m ts L Hr -> | s k s' evs inc name from r sA -> L Ge LT HC -> ->
                 | s k s' evs inc name from r sA -> L Ge LT HC A _ IH]; intro HS.
  - assert (E : no_conflict evs = []) by (destruct He as [->|[r [a ->]]]; reflexivity). rewrite E.
    destruct Hs as [->| ->]; intro; reflexivity.
  - eapply ev_ok_ext; [|apply IH].
    + (* the placeholder is not listed *)
      apply (view_same s _ name _ (fun n' => lk_place s name _ n' Ln)). unfold view. rewrite Ln. reflexivity.
    + intros i n a m v E. exact (place_SelfInv c _ (HS i n a m v E) Ln).
  - assert (E : dead_or_left (rst me) = false).
    { destruct k; try exact Hb. subst bootstrap. rewrite Hfixed in FL.
      destruct (HS _ _ _ _ _ eq_refl FL) as [r [L' [A _]]]. assert (r = me) by congruence. subst. rewrite A. reflexivity. }
    rewrite E. cbn [no_conflict filter ev_ok].
    apply (view_same (touch s (self c)) _ (self c) _ (lk_refute c _ me _)). symmetry. exact (view_lk s _ _ L).
  - pose proof (view_write s _ _ r' (lk_commit s (call_name k) r' m ts)) as Upd.
    pose proof (view_same s _ _ r' (lk_commit s (call_name k) r' m ts)) as Same.
    pose proof (view_lk s _ r L) as V0. unfold entry in *.
    destruct Hr as [inc name from from' r _ DL _ _ | inc name from r t _ A _ _ _ | inc name addr meta vsn b r _ _ Ha _];
      cbn [call_name rst raddr rmeta dead_or_left] in *; cbn [no_conflict filter ev_ok].
    + rewrite DL in V0. split; [exact V0|].
      replace (dead_or_left (if N.eqb name from' then Left else Dead)) with true in Upd by (destruct (N.eqb name from'); reflexivity).
      exact Upd.
    + apply Same. rewrite V0, A. reflexivity.
    + destruct (dead_or_left (rst r)) eqn:DL; cbn [no_conflict filter ev_ok].
      * split; [exact V0 | exact Upd].
      * (* a listed member: the address cannot change, only the metadata *)
        assert (Ea : raddr r = addr).
        { destruct Ha as [E|[_ Cr]]; [exact E|]. unfold can_replace in Cr. destruct (rst r); cbn in Cr, DL; discriminate. }
        destruct (N.eqb_spec (rmeta r) meta) as [Em|Nm]; cbn [negb no_conflict filter ev_ok].
        -- apply Same. rewrite V0, Ea, Em. reflexivity.
        -- split; [|exact Upd]. exists (raddr r, rmeta r). split; [exact V0 | congruence].
  - intro n. apply view_ext, (confirmed_lk HC).
  - eapply ev_ok_ext; [apply view_ext, (confirmed_lk HC) | apply IH]. intros; discriminate.
Qed.

Lemma do_call_events s k : (forall i n a m v, k = CAlive i n a m v false -> SelfInv c s) ->
  ev_ok (view s) (no_conflict (snd (do_call c s k))) (view (fst (do_call c s k))).
Proof. exact (outcome_events s k _ _ (call_outcome c s k)). Qed.

Theorem step_events s o : FInv c s ->
  ev_ok (view s) (no_conflict (snd (step c s o))) (view (fst (step c s o))).
Proof.
  intros [HI K].
  assert (Call : forall s1 e1 k, (forall i n a m v, k = CAlive i n a m v false -> SelfInv c s1) ->
            ev_ok (view s) (no_conflict e1) (view s1) ->
            ev_ok (view s) (no_conflict (e1 ++ snd (do_call c s1 k))) (view (fst (do_call c s1 k)))).
  { intros s1 e1 k HS P1. rewrite no_conflict_app. eapply ev_ok_app; [exact P1 | apply do_call_events, HS]. }
  apply (step_ind0 c (fun s1 e1 => ev_ok (view s) (no_conflict e1) (view s1))).
  - intros k _. apply (Call s []); [intros; apply HI | intro; reflexivity].
  - (* reaping only drops records that are not members *)
    intros _ n. unfold view. rewrite (lk_reap c Hfixed) by exact K.
    destruct (lk s n) as [r|]; [|reflexivity].
    destruct (dead_or_left (rst r)) eqn:D; cbn [andb]; [destruct (_ && _)|]; rewrite ?D; reflexivity.
  - (* what the node claims of its own accord is never an alive claim it could refute *)
    intros s1 e1 k Hk. apply Call. intros i n a m v E. destruct Hk; discriminate.
  - intros s1 e1 s2 Hi P1. rewrite <- (app_nil_r (no_conflict e1)).
    eapply ev_ok_app; [exact P1 | intro n; apply view_ext, (idle_lk _ _ _ _ Hi)].
  - intros s1 e1 _ P1. rewrite no_conflict_app. eapply ev_ok_app; [exact P1 | intro; reflexivity].
  - intro; reflexivity.
Qed.

(* over whole histories: replaying every event delivered so far gives exactly the member set *)
Theorem run_events ops : forall s, FInv c s -> run_ok c s ops ->
  ev_ok (view s) (no_conflict (concat (snd (run c s ops)))) (view (fst (run c s ops))).
Proof.
  induction ops as [|o ops IH]; intros s HI HR; cbn [run].
  - intro; reflexivity.
  - destruct HR as [Ho HR]. pose proof (step_events s o HI) as H1. pose proof (step_FInv c Hfixed s o HI Ho) as HI1.
    destruct (step c s o) as [s1 e]. cbn [fst snd] in *. specialize (IH s1 HI1 HR).
    destruct (run c s1 ops) as [s2 es]. cbn [fst snd concat] in *. rewrite no_conflict_app.
    eapply ev_ok_app; eassumption.
Qed.

(* Members() is the list form of the view *)
Lemma members_view s n a m : keys_ok s -> (In (n, (a, m)) (members s) <-> view s n = Some (a, m)).
Proof.
  intro K. unfold members, view. split.
  - intro H. apply in_map_iff in H. destruct H as [[k r] [E Hin]]. apply filter_In in Hin. destruct Hin as [Hin Hd].
    cbn in E, Hd. inversion E; subst. unfold lk. rewrite (in_alookup_nodup _ _ _ K Hin).
    apply negb_true_iff in Hd. rewrite Hd. reflexivity.
  - intro H. destruct (lk s n) as [r|] eqn:L; [|discriminate]. destruct (dead_or_left (rst r)) eqn:D; [discriminate|].
    inversion H; subst. apply lk_members; assumption.
Qed.

(* C18: events only ever announce allowed addresses *)
Definition ev_allowed (e : event) : Prop :=
  match e with
  | EvJoin _ a _ | EvLeave _ a _ | EvUpdate _ a _ => is_allowed c a = true
  | _ => True
  end.

(* needs neither the rest of the invariant nor the no-wrap premise *)
Lemma outcome_ev_allowed s k s' evs : outcome c s k s' evs -> AllowedInv c s -> Forall ev_allowed evs.
Proof.
  induction 1 as [s k s' evs _ [->|[r [a ->]]] | s k s' evs inc name addr meta vsn b _ Ln Al _ IH | s k s' evs me _ _ _ L _ _ ->
                 | s k s' evs r r' m ts L Hr _ | s k s' evs inc name from r sA _ _ _ _ _ _ ->
                 | s k s' evs inc name from r sA _ _ _ _ [ts [-> _]] _ _ IH]; intro HA; try (repeat constructor; fail).
  - apply IH, place_AllowedInv; assumption.
  - destruct (dead_or_left (rst me)); repeat constructor. exact (HA _ _ L).
  - pose proof (HA _ _ L) as Ar.
    destruct Hr as [| |? ? addr ? ? ? ? _ _ Ha _]; [repeat constructor; exact Ar..|].
    assert (Al : is_allowed c addr = true) by (destruct Ha as [<-|[Al _]]; assumption).
    destruct (dead_or_left (rst r)); [|destruct (negb _)]; repeat constructor; exact Al.
  - apply IH, HA.
Qed.

Lemma step_allowed s o : AllowedInv c s -> keys_ok s ->
  AllowedInv c (fst (step c s o)) /\ Forall ev_allowed (snd (step c s o)).
Proof.
  intros HA K.
  assert (Call : forall s1 e1 k, AllowedInv c s1 /\ Forall ev_allowed e1 ->
            AllowedInv c (fst (do_call c s1 k)) /\ Forall ev_allowed (e1 ++ snd (do_call c s1 k))).
  { intros s1 e1 k [A1 F1]. pose proof (call_outcome c s1 k) as H.
    split; [exact (outcome_AllowedInv c _ _ _ _ H A1) | apply Forall_app; split; [exact F1 | exact (outcome_ev_allowed _ _ _ _ H A1)]]. }
  apply (step_ind0 c (fun s1 e1 => AllowedInv c s1 /\ Forall ev_allowed e1)).
  - intros k _. apply (Call s []). auto.
  - intros _. split; [|constructor]. intros n r L. eapply HA, (lk_reap_some c Hfixed), L. exact K.
  - intros s1 e1 k _. apply Call.
  - intros s1 e1 s2 Hi [A1 F1]. split; [|exact F1]. intros n r. rewrite (idle_lk _ _ _ _ Hi). apply A1.
  - intros s1 e1 _ [A1 F1]. split; [exact A1 | apply Forall_app; split; [exact F1 | repeat constructor]].
  - auto.
Qed.

Lemma run_allowed ops : forall s, AllowedInv c s -> keys_ok s -> AllowedInv c (fst (run c s ops)).
Proof.
  induction ops as [|o ops IH]; intros s HA K; [exact HA|]. rewrite run_cons.
  apply IH; [apply step_allowed | apply step_keys]; assumption.
Qed.

(* alive gossip from a disallowed source, or claiming a disallowed address, is ignored entirely *)
Theorem handle_alive_gate s src inc name addr meta vsn :
  is_allowed c src = false \/ is_allowed c addr = false ->
  step c s (OHandleAlive src inc name addr meta vsn) = (s, []).
Proof.
  intros [H|H]; cbn [step]; rewrite H; cbn [negb]; [reflexivity|]. destruct (negb (is_allowed c src)); reflexivity.
Qed.

(* C08: a member recorded as left stays left under every claim that is not a strictly newer alive
   (or an alive from another address, which may reuse the name).  For an alive claim this is alive_stale_other *)
Theorem left_absorbing_suspect s inc name from r :
  Inv c s -> lk s name = Some r -> rst r = Left -> do_suspect c s inc name from = (s, []).
Proof.
  intros HI L A. apply suspect_stale.
  - left. eapply TInv_no_live; [apply HI | exact L | rewrite A; discriminate].
  - unfold lk in L. rewrite L. right. right. exact A.
Qed.

Theorem left_absorbing_dead s inc name from r :
  Inv c s -> lk s name = Some r -> rst r = Left -> do_dead c s inc name from = (s, []).
Proof.
  intros HI L A. apply dead_stale.
  - left. eapply TInv_no_live; [apply HI | exact L | rewrite A; discriminate].
  - unfold lk in L. rewrite L. right. right. exact A.
Qed.

(* the leaver itself: once leaving, every claim about itself is dropped or is its departure *)
Theorem leaving_alive_dropped s inc addr meta vsn b :
  leaving s = true -> do_alive c s inc (self c) addr meta vsn b = (s, []).
Proof. intro H. unfold do_alive. rewrite H, N.eqb_refl. reflexivity. Qed.

Theorem leaving_suspect_dropped s inc from r :
  Inv c s -> leaving s = true -> lk s (self c) = Some r -> rst r <> Suspect ->
  do_suspect c s inc (self c) from = (s, []).
Proof.
  intros HI Lv L A. unfold do_suspect. fold (lk s (self c)). rewrite L.
  destruct (inc <? rinc r)%N; [reflexivity|].
  assert (NL : no_live (self c) (timers s)) by (eapply TInv_no_live; [apply HI | exact L | exact A]).
  unfold no_live in NL. rewrite NL.
  destruct (negb (st_eqb (rst r) Alive)); [reflexivity|]. rewrite N.eqb_refl, Hfixed, Lv. reflexivity.
Qed.

(* whoever signed it, a dead claim about a leaving node that it accepts is announced and recorded
   as the node's own departure *)
Theorem leaving_dead_is_departure s inc from r :
  leaving s = true -> lk s (self c) = Some r -> dead_or_left (rst r) = false -> (rinc r <= inc)%N ->
  let '(s', evs) := do_dead c s inc (self c) from in
  lk s' (self c) = Some (mkRec inc Left (raddr r) (rmeta r) (rvsn r) (now s))
  /\ alookup (kname (self c)) (bq s') = Some (BDead inc (self c) (self c))
  /\ evs = [EvLeave (self c) (raddr r) (rmeta r)].
Proof.
  intros Lv L DL Ge. rewrite (dead_recorded c s inc (self c) from r L Ge DL (fun _ => Lv)), N.eqb_refl, Hfixed.
  cbn [andb]. rewrite N.eqb_refl. spl; [rewrite lk_commit, N.eqb_refl; reflexivity | apply alookup_aset_same | reflexivity].
Qed.

(* a peer that lists x and does not remember a newer incarnation records the departure as "left" *)
Theorem peer_records_left s inc name r :
  name <> self c -> lk s name = Some r -> dead_or_left (rst r) = false -> (rinc r <= inc)%N ->
  let '(s', evs) := do_dead c s inc name name in
  lk s' name = Some (mkRec inc Left (raddr r) (rmeta r) (rvsn r) (now s))
  /\ evs = [EvLeave name (raddr r) (rmeta r)].
Proof.
  intros Hn L DL Ge. rewrite (dead_recorded c s inc name name r L Ge DL) by (intro; contradiction).
  apply N.eqb_neq in Hn. rewrite Hn. cbn [andb]. rewrite N.eqb_refl. split; [rewrite lk_commit, N.eqb_refl|]; reflexivity.
Qed.

(* name reuse: immediately after a graceful leave, after a failure only once the reclaim time elapsed *)
Theorem reclaim_accepted s inc name addr meta vsn r :
  name <> self c -> vsn_bad vsn = false -> lk s name = Some r -> raddr r <> addr -> is_allowed c addr = true ->
  can_replace c s r = true ->
  let '(s', evs) := do_alive c s inc name addr meta vsn false in
  lk s' name = Some (mkRec inc Alive addr meta (if (6 <=? length vsn)%nat then firstn 6 vsn else rvsn r) (now s))
  /\ evs = [EvJoin name addr meta].
Proof.
  intros Hn Vb L Na Al Cr. unfold do_alive, alive_find, alive_apply. fold (lk s name). rewrite L, Vb.
  destruct (N.eqb_spec name (self c)); [contradiction|].
  destruct (N.eqb_spec (raddr r) addr); [contradiction|]. rewrite Al, Cr.
  cbn [negb andb]. rewrite !andb_false_r.
  assert (DL : dead_or_left (rst r) = true /\ st_eqb (rst r) Alive = false).
  { unfold can_replace in Cr. destruct (rst r); cbn in *; try discriminate; auto. }
  destruct DL as [D1 D2]. rewrite D1, D2. split; [rewrite lk_set_rec_same; reflexivity | reflexivity].
Qed.

End WithCfg.

(* C09: a peer's claim that a third member, held Alive, is dead or suspect (push/pull hearsay) does not remove
   the member: it is either ignored or starts a local suspicion; the member stays listed, no event fires *)
Theorem hearsay_keeps_member c s rs inc n addr meta vsn r :
  Inv c s -> lk s n = Some r -> rst r = Alive -> n <> self c -> (rs = Dead \/ rs = Suspect) ->
  let '(s', evs) := do_merge c s rs inc n addr meta vsn in
  evs = [] /\ view s' n = view s n.
Proof.
  intros HI L A Hn Hrs.
  assert (E : do_merge c s rs inc n addr meta vsn = do_suspect c s inc n (self c)) by (destruct Hrs; subst; reflexivity).
  rewrite E. unfold do_suspect. fold (lk s n). rewrite L.
  destruct (inc <? rinc r)%N; [split; reflexivity|].
  assert (NL : live_timer n (timers s) = None) by (eapply TInv_no_live; [apply HI | exact L | rewrite A; discriminate]).
  rewrite NL, A. apply N.eqb_neq in Hn. rewrite Hn. cbn [st_eqb negb]. split; [reflexivity|].
  unfold view. rewrite lk_set_timers, lk_set_rec_same, L, A. reflexivity.
Qed.

(* a concrete configuration used by the non-vacuity examples (SuspicionMult 4, 1 s probe interval) *)
Definition cfg_ex : cfg :=
  mkCfg 0 0 [1;5;2;0;0;0]%N 0 30000000000 2 4000000000 6 [24000000000;11381000000;4000000000]%Z 8 true false [] true.
