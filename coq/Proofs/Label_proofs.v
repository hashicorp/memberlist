(* Label_proofs.v — C16 codec theorems. *)
From VF Require Import Base Label.

(* Cutting [a ++ b] at or before the seam: every length-prefixed decoder here and in Wire_proofs
   tests the length, then takes [firstn] and [skipn]. *)
Lemma firstn_app_le {A} n (a b : list A) : (n <= length a)%nat -> firstn n (a ++ b) = firstn n a.
Proof. intro H. rewrite firstn_app. replace (n - length a)%nat with 0%nat by lia. apply app_nil_r. Qed.

Lemma skipn_app_le {A} n (a b : list A) : (n <= length a)%nat -> skipn n (a ++ b) = skipn n a ++ b.
Proof. intro H. rewrite skipn_app. replace (n - length a)%nat with 0%nat by lia. reflexivity. Qed.

Lemma firstn_app_len {A} n (a b : list A) : length a = n -> firstn n (a ++ b) = a.
Proof. intros <-. rewrite firstn_app_le by reflexivity. apply firstn_all. Qed.

Lemma skipn_app_len {A} n (a b : list A) : length a = n -> skipn n (a ++ b) = b.
Proof. intros <-. rewrite skipn_app_le, skipn_all by reflexivity. reflexivity. Qed.

Lemma ltb_app_len {A} n (a b : list A) : length a = n -> (length (a ++ b) <? n)%nat = false.
Proof. intros <-. apply Nat.ltb_ge. rewrite app_length. lia. Qed.

Lemma to_nat_blen l : N.to_nat (blen l) = length l.
Proof. apply Nat2N.id. Qed.

Lemma add_label_header buf label : (length label <= 255)%nat -> add_label buf label = Ok (label_header label ++ buf).
Proof.
  intro H. destruct label as [|l0 ls]; [reflexivity|]. unfold add_label.
  destruct (N.ltb_spec 255 (blen (l0 :: ls))); [unfold blen in *; lia | reflexivity].
Qed.

(* what the parser does once it has seen the header byte and a size byte *)
Lemma remove_label_sized sz rest :
  remove_label (has_label_msg :: sz :: rest) =
  if (sz <? 1)%N then Err 3
  else if (length rest <? N.to_nat sz)%nat then Err 2
  else Ok (skipn (N.to_nat sz) rest, firstn (N.to_nat sz) rest).
Proof. reflexivity. Qed.

Lemma remove_label_header label buf : label <> [] -> remove_label (label_header label ++ buf) = Ok (buf, label).
Proof.
  intro Hne. destruct label as [|l0 ls]; [contradiction|]. unfold label_header. set (lab := l0 :: ls).
  cbn [app]. rewrite remove_label_sized, to_nat_blen.
  destruct (N.ltb_spec (blen lab) 1); [unfold blen, lab in *; cbn [length] in *; lia|].
  rewrite ltb_app_len, skipn_app_len, firstn_app_len by reflexivity. reflexivity.
Qed.

(* adding then removing the packet header returns payload and label, for every label of 1..255 bytes *)
Theorem label_packet_roundtrip label buf :
  label <> [] -> (length label <= 255)%nat ->
  match add_label buf label with
  | Ok p => remove_label p = Ok (buf, label)
  | _ => False
  end.
Proof. intros Hne Hlen. rewrite add_label_header by exact Hlen. apply remove_label_header, Hne. Qed.

Theorem overlong_label_err label buf : (255 < length label)%nat -> add_label buf label = Err 1.
Proof.
  intro H. destruct label as [|l0 ls]; [cbn in H; lia|]. unfold add_label.
  destruct (N.ltb_spec 255 (blen (l0 :: ls))); [reflexivity | unfold blen in *; lia].
Qed.

(* no header byte: the packet passes through unchanged with the empty label *)
Theorem no_header_passthrough buf : (forall b r, buf = b :: r -> b <> has_label_msg) -> remove_label buf = Ok (buf, []).
Proof.
  intro H. destruct buf as [|b r]; [reflexivity|]. cbn. specialize (H b r eq_refl).
  destruct (N.eqb_spec b has_label_msg); [contradiction | reflexivity].
Qed.

(* what [add_label] prepends, [remove_label] takes off again; without a label the payload must not
   itself look like a header *)
Lemma remove_added_label label buf :
  (label = [] -> forall b r, buf = b :: r -> b <> has_label_msg) ->
  remove_label (label_header label ++ buf) = Ok (buf, label).
Proof.
  intro H. destruct label; [apply no_header_passthrough, H; reflexivity | apply remove_label_header; discriminate].
Qed.

(* truncated headers are errors, never a (mis)parsed label *)
Theorem truncated_header_err :
  remove_label [has_label_msg] = Err 2 /\
  forall sz rest, (1 <= sz)%N -> (length rest < N.to_nat sz)%nat -> remove_label (has_label_msg :: sz :: rest) = Err 2.
Proof.
  split; [reflexivity|]. intros sz rest H1 H2. rewrite remove_label_sized.
  destruct (N.ltb_spec sz 1); [lia|]. destruct (Nat.ltb_spec (length rest) (N.to_nat sz)); [reflexivity | lia].
Qed.

(* ---- streams: bufio.Peek through any fragmentation ---- *)

(* a header, two bytes and a label of at most 255, fits the bufio buffer *)
Lemma header_fits_buffer sz : (sz <= 255)%N -> (2 + N.to_nat sz <= bufsize)%nat.
Proof. intro H. apply Nat.le_trans with (2 + 255)%nat; [lia | apply Nat.leb_le; reflexivity]. Qed.

(* Peek(n) moves a prefix of what the connection still holds into the buffer, and comes back with
   fewer than n bytes only when the connection is exhausted *)
Lemma fill_until_spec n : forall frags buf,
  (length buf <= bufsize)%nat -> (n <= bufsize)%nat ->
  exists ext f, fill_until n buf frags = (buf ++ ext, f)
    /\ ext ++ concat f = concat frags /\ (length (buf ++ ext) <= bufsize)%nat
    /\ ((length (buf ++ ext) < n)%nat -> f = []).
Proof.
  induction frags as [|fr frags IH]; intros buf Hb Hn; cbn [fill_until].
  - exists [], []. rewrite app_nil_r. split; [destruct (n <=? length buf)%nat; reflexivity | auto].
  - destruct (Nat.leb_spec n (length buf)); [exists [], (fr :: frags); rewrite app_nil_r; repeat split; auto; lia|].
    destruct (Nat.leb_spec (length fr) (bufsize - length buf)).
    + destruct (IH (buf ++ fr)) as (ext & f & E & S & L & X); [rewrite app_length; lia | exact Hn |].
      exists (fr ++ ext), f. cbn [concat]. rewrite <- S, !app_assoc. auto.
    + eexists _, _. split; [reflexivity|]. rewrite app_length, firstn_length. repeat split; try lia.
      cbn [concat]. rewrite app_assoc, firstn_skipn. reflexivity.
Qed.

(* The stream reader is the packet parser applied to the bytes of the connection, however they are
   fragmented (also inside the header), given that the size byte of a header is a byte: then every
   Peek asks for no more than the buffer holds. *)
Theorem remove_label_stream_spec frags :
  (forall sz r, concat frags = has_label_msg :: sz :: r -> (sz <= 255)%N) ->
  match remove_label_stream frags with
  | Ok (label, pc) => remove_label (concat frags) = Ok (drain pc, label)
  | Err e => remove_label (concat frags) = Err e
  | Panic => False
  end.
Proof.
  (* Each Peek extends the buffer, and buffer ++ rest of the connection is still the whole stream;
     a buffer shorter than asked for IS the whole stream. *)
  intro Hsz. assert (Hfit : (2 <= bufsize)%nat) by exact (header_fits_buffer 0 (N.le_0_l _)). unfold remove_label_stream.
  destruct (fill_until_spec 1 frags []) as (b1 & f1 & -> & E1 & L1 & X1); [apply Nat.le_0_l | lia |].
  cbn [app] in *. rewrite <- E1 in Hsz |- *. clear E1.
  destruct b1 as [|b0 b1]; [rewrite X1 by (cbn; lia); reflexivity|].
  destruct (N.eqb_spec b0 has_label_msg) as [->|Hb]; cbn [negb];
    [|apply no_header_passthrough; intros b r E; injection E as <- _; exact Hb].
  (* the header byte is there: Peek(2) for the size *)
  destruct (fill_until_spec 2 f1 (has_label_msg :: b1)) as (e2 & f2 & -> & E2 & L2 & X2); [exact L1 | lia |].
  cbn [app] in *. rewrite <- E2, app_assoc in Hsz |- *. clear E2.
  destruct (b1 ++ e2) as [|sz b2]; [rewrite X2 by (cbn; lia); reflexivity|].
  cbn [app] in Hsz |- *. rewrite remove_label_sized. destruct (sz <? 1)%N; [reflexivity|].
  (* Peek(2 + size) for the label *)
  destruct (fill_until_spec (2 + N.to_nat sz) f2 (has_label_msg :: sz :: b2)) as (e3 & f3 & -> & E3 & L3 & X3);
    [exact L2 | exact (header_fits_buffer sz (Hsz _ _ eq_refl)) |].
  cbn [app] in *. rewrite <- E3, app_assoc. clear E3. set (b3 := b2 ++ e3) in *. cbn [skipn plus].
  destruct (Nat.ltb_spec (length (has_label_msg :: sz :: b3)) (S (S (N.to_nat sz)))) as [Hl|Hl]; cbn [length] in Hl.
  - rewrite X3 by (cbn [length]; lia). cbn [concat]. rewrite app_nil_r.
    destruct (Nat.ltb_spec (length b3) (N.to_nat sz)); [reflexivity | lia].
  - destruct (Nat.ltb_spec (length (b3 ++ concat f3)) (N.to_nat sz)) as [Hs|_]; [rewrite app_length in Hs; lia|].
    rewrite firstn_app_le, skipn_app_le by lia. reflexivity.
Qed.

Corollary remove_label_stream_ok frags rest label :
  (forall sz r, concat frags = has_label_msg :: sz :: r -> (sz <= 255)%N) ->
  remove_label (concat frags) = Ok (rest, label) ->
  exists pc, remove_label_stream frags = Ok (label, pc) /\ drain pc = rest.
Proof.
  intros Hsz E. pose proof (remove_label_stream_spec frags Hsz) as S. rewrite E in S.
  destruct (remove_label_stream frags) as [[l pc]|e|]; [injection S as -> ->; eauto | discriminate S | contradiction].
Qed.

(* header + payload delivered in ANY fragmentation (also splits inside the header): the label comes
   back and the continuation yields exactly the payload *)
Theorem label_stream_roundtrip label payload frags :
  label <> [] -> (length label <= 255)%nat ->
  concat frags = label_header label ++ payload ->
  exists pc, remove_label_stream frags = Ok (label, pc) /\ drain pc = payload.
Proof.
  intros Hne Hlen Hc. apply remove_label_stream_ok; rewrite Hc; [|apply remove_label_header, Hne].
  destruct label; [contradiction|]. intros sz r E. injection E as <- _. unfold blen. lia.
Qed.

(* an unlabeled stream (first byte is not the header byte) is passed on untouched *)
Theorem stream_no_header_passthrough frags b rest :
  concat frags = b :: rest -> b <> has_label_msg ->
  exists pc, remove_label_stream frags = Ok ([], pc) /\ drain pc = b :: rest.
Proof.
  intros Hc Hb. apply remove_label_stream_ok; rewrite Hc; [|apply no_header_passthrough]; congruence.
Qed.
