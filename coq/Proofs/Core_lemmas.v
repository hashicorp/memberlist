(* Core_lemmas.v — what the handlers of Model/Core.v do: association lists and timers, the three claim
   handlers as one call, the relation [outcome] that says what a claim does to a node, and the equations of a
   claim on the special inputs the properties speak about. *)
From VF Require Import Base Core.

Local Open Scope Z_scope.

(* [repeat split] that stops at anything but a conjunction *)
Ltac spl := repeat match goal with |- _ /\ _ => split end.

Lemma alookup_aset {A} k (v : A) l k' : alookup k' (aset k v l) = if N.eqb k' k then Some v else alookup k' l.
Proof.
  induction l as [|[k2 v2] l IH]; simpl; [reflexivity|].
  destruct (N.eqb_spec k k2) as [<-|N1]; simpl; [destruct (N.eqb k' k); reflexivity|].
  rewrite IH. destruct (N.eqb_spec k' k2) as [->|_]; [|reflexivity]. destruct (N.eqb_spec k2 k); [congruence | reflexivity].
Qed.

Lemma alookup_aset_same {A} k (v : A) l : alookup k (aset k v l) = Some v.
Proof. rewrite alookup_aset, N.eqb_refl. reflexivity. Qed.

Lemma alookup_snoc {A} k (v : A) l k' :
  alookup k l = None -> alookup k' (l ++ [(k, v)]) = if N.eqb k' k then Some v else alookup k' l.
Proof.
  induction l as [|[k2 v2] l IH]; simpl; intro H; [reflexivity|].
  destruct (N.eqb_spec k k2) as [|N1]; [discriminate|].
  rewrite (IH H). destruct (N.eqb_spec k' k2) as [->|_]; [|reflexivity]. destruct (N.eqb_spec k2 k); [congruence | reflexivity].
Qed.

Lemma In_aset {A} k (v : A) k0 v0 l : In (k, v) (aset k0 v0 l) -> (k, v) = (k0, v0) \/ In (k, v) l.
Proof.
  induction l as [|[k1 v1] l IH]; cbn.
  - intros [E|[]]. left. symmetry. exact E.
  - destruct (N.eqb k0 k1).
    + intros [E|H]; [left; symmetry; exact E | right; right; exact H].
    + intros [E|H]; [right; left; exact E|]. destruct (IH H) as [E|H']; [left; exact E | right; right; exact H'].
Qed.

Lemma alookup_none_notin {A} k (l : list (N * A)) : alookup k l = None -> ~ In k (map fst l).
Proof.
  induction l as [|[k' v] l IH]; simpl; [intros _ []|].
  destruct (N.eqb_spec k k'); [discriminate|]. intros H [E|Hin]; [congruence | exact (IH H Hin)].
Qed.

Lemma alookup_some_in {A} k (l : list (N * A)) v : alookup k l = Some v -> In (k, v) l.
Proof.
  induction l as [|[k' v'] l IH]; simpl; [discriminate|].
  destruct (N.eqb_spec k k'); [intro H; inversion H; subst; left; reflexivity | intro H; right; apply IH; exact H].
Qed.

Lemma in_alookup_nodup {A} k (l : list (N * A)) v : NoDup (map fst l) -> In (k, v) l -> alookup k l = Some v.
Proof.
  induction l as [|[k' v'] l IH]; simpl; [intros _ []|].
  intros ND [E|Hin].
  - inversion E; subst. rewrite N.eqb_refl. reflexivity.
  - inversion ND as [|? ? Hn ND']; subst. destruct (N.eqb_spec k k') as [E|N1].
    + subst. exfalso. apply Hn. apply (in_map fst) in Hin. exact Hin.
    + apply IH; assumption.
Qed.

Lemma map_fst_aset {A} k (v : A) l :
  map fst (aset k v l) = if match alookup k l with Some _ => true | None => false end then map fst l else map fst l ++ [k].
Proof.
  induction l as [|[k' v'] l IH]; simpl.
  - reflexivity.
  - destruct (N.eqb_spec k k'); simpl.
    + subst. reflexivity.
    + rewrite IH. destruct (alookup k l); reflexivity.
Qed.

Lemma NoDup_aset {A} k (v : A) l : NoDup (map fst l) -> NoDup (map fst (aset k v l)).
Proof.
  intro ND. rewrite map_fst_aset. destruct (alookup k l) eqn:E; [exact ND|].
  apply NoDup_app_one; [exact ND | apply alookup_none_notin; exact E].
Qed.

Lemma NoDup_map_filter {A} (p : N * A -> bool) l : NoDup (map fst l) -> NoDup (map fst (filter p l)).
Proof.
  induction l as [|[k v] l IH]; simpl; intro ND; [constructor|].
  inversion ND as [|? ? Hn ND']; subst. destruct (p (k, v)); simpl; [|apply IH; exact ND'].
  constructor; [|apply IH; exact ND']. intro H. apply Hn. apply in_map_iff in H. destruct H as [[k' v'] [E Hin]].
  apply filter_In in Hin. destruct Hin as [Hin _]. simpl in E. subst. apply (in_map fst) in Hin. exact Hin.
Qed.

Lemma alookup_filter_keep {A} (p : N * A -> bool) k l v :
  alookup k l = Some v -> p (k, v) = true -> alookup k (filter p l) = Some v.
Proof.
  induction l as [|[k' v'] l IH]; simpl; [discriminate|].
  destruct (N.eqb_spec k k').
  - intros E Hp. inversion E; subst. rewrite Hp. simpl. rewrite N.eqb_refl. reflexivity.
  - destruct (p (k', v')); simpl; [destruct (N.eqb_spec k k'); [contradiction|]|]; apply IH.
Qed.

Lemma alookup_filter {A} (p : N * A -> bool) k l : NoDup (map fst l) ->
  alookup k (filter p l) = match alookup k l with Some v => if p (k, v) then Some v else None | None => None end.
Proof.
  intro ND. destruct (alookup k (filter p l)) as [w|] eqn:F.
  - apply alookup_some_in, filter_In in F. destruct F as [Hin Hp]. rewrite (in_alookup_nodup _ _ _ ND Hin), Hp. reflexivity.
  - destruct (alookup k l) as [v|] eqn:E; [|reflexivity]. destruct (p (k, v)) eqn:Hp; [|reflexivity].
    rewrite (alookup_filter_keep _ _ _ _ E Hp) in F. discriminate.
Qed.

Definition lk (s : nstate) (n : N) : option rec := alookup n (recs s).

Lemma lk_set_rec_same s n r : lk (set_rec s n r) n = Some r.
Proof. apply alookup_aset_same. Qed.

Lemma lk_set_timers s ts n : lk (set_timers s ts) n = lk s n. Proof. reflexivity. Qed.

Lemma set_timers_same s : set_timers s (timers s) = s.
Proof. destruct s; reflexivity. Qed.

(* member names stay unique *)
Definition keys_ok (s : nstate) : Prop := NoDup (map fst (recs s)).

Definition no_live (n : N) (ts : list ptimer) : Prop := live_timer n ts = None.

Lemma orphan_no_live n ts : no_live n ts -> orphan n ts = ts.
Proof.
  unfold no_live, live_timer, orphan. induction ts as [|t ts IH]; simpl; [reflexivity|].
  destruct (N.eqb (tname t) n && tlive t) eqn:E; [discriminate|]. intro H. f_equal. apply IH. exact H.
Qed.

Lemma live_timer_some n ts t : live_timer n ts = Some t -> In t ts /\ tname t = n /\ tlive t = true.
Proof.
  unfold live_timer. intro H. apply find_some in H. destruct H as [H1 H2].
  apply andb_true_iff in H2. destruct H2 as [H2 H3]. apply N.eqb_eq in H2. auto.
Qed.

Lemma live_timer_none n ts : live_timer n ts = None -> forall t, In t ts -> tname t = n -> tlive t = false.
Proof.
  unfold live_timer. intros H t Ht En. pose proof (find_none _ _ H t Ht) as F. cbn in F.
  rewrite En, N.eqb_refl in F. exact F.
Qed.

Lemma no_live_sub n ts ts' : no_live n ts ->
  (forall u, In u ts' -> tlive u = true -> In u ts \/ tname u <> n) -> no_live n ts'.
Proof.
  intros NL H. unfold no_live. destruct (live_timer n ts') as [u|] eqn:E; [|reflexivity].
  apply live_timer_some in E. destruct E as [Hu [En Lu]].
  destruct (H u Hu Lu) as [Hin|]; [|contradiction]. rewrite (live_timer_none n ts NL u Hin En) in Lu. discriminate.
Qed.

Lemma orphan_live name ts t : In t (orphan name ts) -> tlive t = true -> In t ts /\ tname t <> name.
Proof.
  intros Ht Lv. apply in_map_iff in Ht. destruct Ht as [u [<- Hu]].
  destruct (N.eqb_spec (tname u) name) as [E|N1]; cbn [andb] in Lv |- *; [|auto].
  destruct (tlive u) eqn:Lu; [discriminate | congruence].
Qed.

Lemma orphan_no_live_after name ts : live_timer name (orphan name ts) = None.
Proof.
  destruct (live_timer name (orphan name ts)) as [t|] eqn:E; [|reflexivity].
  apply live_timer_some in E. destruct E as [Hu [En Lu]]. destruct (orphan_live _ _ _ Hu Lu) as [_ N1]. contradiction.
Qed.

Lemma orphan_live_other name ts n : n <> name -> live_timer n (orphan name ts) = live_timer n ts.
Proof.
  intro Hn. unfold live_timer, orphan. induction ts as [|t ts IH]; simpl; [reflexivity|].
  destruct (N.eqb_spec (tname t) name) as [E|N1]; cbn [andb].
  - destruct (tlive t) eqn:Lv; cbn [tname tlive].
    + destruct (N.eqb_spec (tname t) n); [congruence|]. cbn [andb]. exact IH.
    + rewrite Lv, andb_false_r. exact IH.
  - destruct (N.eqb (tname t) n && tlive t); [reflexivity | exact IH].
Qed.

Definition refute_inc (s : nstate) (accused : N) : N :=
  let i0 := ((linc s + 1) mod two32)%N in
  if (i0 <=? accused)%N then ((i0 + (accused - i0 + 1)) mod two32)%N else i0.

Definition bumped (r : rec) (i : N) : rec := mkRec i (rst r) (raddr r) (rmeta r) (rvsn r) (rsince r).

Lemma bumped_same r : bumped r (rinc r) = r.
Proof. destruct r; reflexivity. Qed.

Lemma lk_refute c s me acc n' :
  lk (refute c s me acc) n' = if N.eqb n' (self c) then Some (bumped me (refute_inc s acc)) else lk s n'.
Proof. apply alookup_aset. Qed.

Lemma linc_refute c s me acc : linc (refute c s me acc) = refute_inc s acc.
Proof. reflexivity. Qed.

Lemma refute_outranks s accused :
  (accused < two32 - 1)%N -> (linc s < two32 - 1)%N ->
  (accused < refute_inc s accused)%N /\ (linc s < refute_inc s accused)%N.
Proof.
  intros Ha Hl. unfold refute_inc, two32 in *. cbv zeta.
  rewrite (N.mod_small (linc s + 1)) by lia.
  destruct (N.leb_spec (linc s + 1) accused).
  - rewrite N.mod_small by lia. lia.
  - lia.
Qed.

Lemma refute_keys c s me acc : keys_ok s -> keys_ok (refute c s me acc).
Proof. apply NoDup_aset. Qed.

Inductive call :=
| CAlive (inc name addr meta : N) (vsn : list N) (bootstrap : bool)
| CSuspect (inc name from : N)
| CDead (inc name from : N).

Definition do_call (c : cfg) (s : nstate) (k : call) : nstate * list event :=
  match k with
  | CAlive inc name addr meta vsn b => do_alive c s inc name addr meta vsn b
  | CSuspect inc name from => do_suspect c s inc name from
  | CDead inc name from => do_dead c s inc name from
  end.

Definition call_inc (k : call) : N := match k with CAlive i _ _ _ _ _ | CSuspect i _ _ | CDead i _ _ => i end.

Definition call_name (k : call) : N := match k with CAlive _ n _ _ _ _ | CSuspect _ n _ | CDead _ n _ => n end.

Definition merge_call (c : cfg) (rs : st) (inc name addr meta : N) (vsn : list N) : call :=
  match rs with
  | Alive => CAlive inc name addr meta vsn false
  | Left => CDead inc name name
  | Dead | Suspect => CSuspect inc name (self c)
  end.

Lemma do_merge_call c s rs inc name addr meta vsn :
  do_merge c s rs inc name addr meta vsn = do_call c s (merge_call c rs inc name addr meta vsn).
Proof. destruct rs; reflexivity. Qed.

Lemma merge_call_name c rs inc name addr meta vsn : call_name (merge_call c rs inc name addr meta vsn) = name.
Proof. destruct rs; reflexivity. Qed.

Lemma merge_call_inc c rs inc name addr meta vsn : call_inc (merge_call c rs inc name addr meta vsn) = inc.
Proof. destruct rs; reflexivity. Qed.

(* the claim an operation hands to the handlers, if it is one *)
Definition op_call (c : cfg) (o : op) : option call :=
  match o with
  | OAlive inc name addr meta vsn b => Some (CAlive inc name addr meta vsn b)
  | OHandleAlive src inc name addr meta vsn =>
      if is_allowed c src && is_allowed c addr then Some (CAlive inc name addr meta vsn false) else None
  | OSuspect inc name from => Some (CSuspect inc name from)
  | ODead inc name from => Some (CDead inc name from)
  | OMerge rs inc name addr meta vsn => Some (merge_call c rs inc name addr meta vsn)
  | OLeaveCommit inc => Some (CDead inc (self c) (self c))
  | _ => None
  end.

Lemma step_op_call c s o k : op_call c o = Some k -> step c s o = do_call c s k.
Proof.
  destruct o; cbn [op_call step]; try discriminate; try (intro E; inversion E; reflexivity).
  - destruct (is_allowed c src), (is_allowed c addr); cbn; try discriminate. intro E; inversion E; reflexivity.
  - intro E; inversion E. apply do_merge_call.
Qed.

Lemma run_cons c s o ops : fst (run c s (o :: ops)) = fst (run c (fst (step c s o)) ops).
Proof. cbn [run]. destruct (step c s o) as [s1 e]. cbn [fst]. destruct (run c s1 ops). reflexivity. Qed.

(* the states a claim leaves, written out: the live timer of [n] orphaned; a record appended for an unknown name;
   a message queued, a record written and the timer list replaced *)
Definition touch (s : nstate) (n : N) : nstate := set_timers s (orphan n (timers s)).

Definition place (s : nstate) (n : N) (r : rec) : nstate :=
  mkS (recs s ++ [(n, r)]) (nnodes s + 1) (timers s) (linc s) (leaving s) (score s) (bq s) (now s).

Definition commit (s : nstate) (n : N) (r : rec) (m : bmsg) (ts : list ptimer) : nstate :=
  set_timers (set_rec (set_bq s (kname n) m) n r) ts.

Lemma touch_timers s n u : In u (timers (touch s n)) -> tlive u = true -> In u (timers s) /\ tname u <> n.
Proof. apply orphan_live. Qed.

Lemma touch_no_live s n : no_live n (timers s) -> touch s n = s.
Proof. intro H. unfold touch. rewrite (orphan_no_live _ _ H). apply set_timers_same. Qed.

Lemma lk_commit s n r m ts n' : lk (commit s n r m ts) n' = if N.eqb n' n then Some r else lk s n'.
Proof. apply alookup_aset. Qed.

Lemma lk_place s n r n' : lk s n = None -> lk (place s n r) n' = if N.eqb n' n then Some r else lk s n'.
Proof. apply alookup_snoc. Qed.

Lemma recs_commit_place s n r0 r m ts : lk s n = None -> recs (commit (place s n r0) n r m ts) = recs (commit s n r m ts).
Proof.
  unfold lk. cbn [commit place set_timers set_rec set_bq recs]. induction (recs s) as [|[k1 v1] l IH]; cbn.
  - rewrite N.eqb_refl. reflexivity.
  - destruct (N.eqb n k1); [discriminate|]. intro H. rewrite (IH H). reflexivity.
Qed.

(* the record [r] held, the record, message, timers and events an accepted claim leaves *)
Inductive recorded (c : cfg) (s : nstate) : call -> rec -> rec -> bmsg -> list ptimer -> list event -> Prop :=
| rec_dead inc name from from' r : (rinc r <= inc)%N ->
    dead_or_left (rst r) = false -> (name = self c -> leaving s = true) ->
    from' = (if N.eqb name (self c) && fixed c then name else from) ->
    recorded c s (CDead inc name from) r
      (mkRec inc (if N.eqb name from' then Left else Dead) (raddr r) (rmeta r) (rvsn r) (now s))
      (BDead inc name from') (orphan name (timers s)) [EvLeave name (raddr r) (rmeta r)]
| rec_suspect inc name from r t : (rinc r <= inc)%N ->
    rst r = Alive -> name <> self c -> live_timer name (timers s) = None ->
    t = (let k := if nnodes s - 2 <? kcfg c then 0 else kcfg c in
         mkT name (now s) k 0 [from] (now s) (now s + (if k <? 1 then smin c else smaxmult c * smin c)) true) ->
    recorded c s (CSuspect inc name from) r
      (mkRec inc Suspect (raddr r) (rmeta r) (rvsn r) (now s))
      (BSuspect inc name from) (timers s ++ [t]) []
(* why an alive claim is accepted: it is newer, or the node's own announcement and not older, or comes from another
   address that may take the name over; and the address it carries is the recorded one unless it takes the name over *)
| rec_alive inc name addr meta vsn b r : leaving s && N.eqb name (self c) = false ->
    (rinc r < inc)%N \/ (name = self c /\ (rinc r <= inc)%N) \/
      (raddr r <> addr /\ is_allowed c addr = true /\ can_replace c s r = true) ->
    (raddr r = addr \/ is_allowed c addr = true /\ can_replace c s r = true) ->
    (name = self c -> b = true) ->
    recorded c s (CAlive inc name addr meta vsn b) r
      (mkRec inc Alive addr meta (if (6 <=? length vsn)%nat then firstn 6 vsn else rvsn r)
             (if st_eqb (rst r) Alive then rsince r else now s))
      (BAlive inc name addr meta vsn) (orphan name (timers s))
      (if dead_or_left (rst r) then [EvJoin name addr meta]
       else if negb (N.eqb (rmeta r) meta) then [EvUpdate name addr meta] else []).

(* a claim recorded about the node itself is its own departure, or its own announcement *)
Lemma recorded_self {c s k r r' m ts evs} : recorded c s k r r' m ts evs -> call_name k = self c ->
  match k with
  | CDead _ _ _ => leaving s = true /\ dead_or_left (rst r) = false
  | CSuspect _ _ _ => False
  | CAlive _ _ _ _ _ b => b = true /\ leaving s = false
  end.
Proof.
  intros [? ? ? ? ? _ DL Hl _ | ? ? ? ? ? _ _ Ns _ _ | ? ? ? ? ? ? ? LS _ _ Hb]; cbn [call_name]; intro E; auto.
  subst. rewrite N.eqb_refl, andb_true_r in LS. auto.
Qed.

Lemma recorded_live {c s k r r' m ts evs} : recorded c s k r r' m ts evs ->
  forall u, In u ts -> tlive u = true ->
  In u (timers s) /\ tname u <> call_name k \/ tname u = call_name k /\ rst r' = Suspect /\ call_name k <> self c.
Proof.
  intros Hr u Hu Lu. destruct Hr as [| ? ? ? ? t _ _ Ns NL Et |]; cbn [call_name rst];
    try (left; exact (orphan_live _ _ _ Hu Lu)).
  apply in_app_or in Hu. destruct Hu as [Hu|[<-|[]]]; [left | right; rewrite Et; auto].
  split; [exact Hu|]. intro E. rewrite (live_timer_none _ _ NL u Hu E) in Lu. discriminate.
Qed.

(* a confirmation: the message is queued and the live timer of the suspect is replaced by a shortened one,
   or removed when no time is left *)
Definition confirmed (s : nstate) (inc name from : N) (sA : nstate) : Prop :=
  exists ts, sA = set_bq (set_timers s ts) (kname name) (BSuspect inc name from) /\
    forall u, In u ts -> tlive u = true -> In u (timers s) \/ tname u = name.

Lemma confirmed_lk {s inc name from sA} : confirmed s inc name from sA -> forall n, lk sA n = lk s n.
Proof. intros [ts [-> _]] n. reflexivity. Qed.

(* A claim is ignored, refuted (about the running node itself), recorded, or -- a suspicion of a member
   already suspected -- counted as a confirmation, which may use up the timer's remaining time: the timeout
   then fires at once, a death claim of the node's own.  An alive claim about an unknown member first
   inserts a placeholder record (Dead at incarnation 0) and is then handled as a claim about a known one. *)
Inductive outcome (c : cfg) (s : nstate) (k : call) (s' : nstate) (evs : list event) : Prop :=
| Ignored : s' = s \/ s' = touch s (call_name k) ->
    evs = [] \/ (exists r addr, evs = [EvConflict (call_name k) (raddr r) addr]) ->
    outcome c s k s' evs
| Placeholder inc name addr meta vsn b : k = CAlive inc name addr meta vsn b ->
    lk s name = None -> is_allowed c addr = true ->
    outcome c (place s name (new_rec addr meta vsn)) k s' evs ->
    outcome c s k s' evs
| Refuted me : call_name k = self c -> fixed c && leaving s = false ->
    match k with CAlive _ _ _ _ _ b => b = false | _ => dead_or_left (rst me) = false end ->
    lk s (self c) = Some me -> (rinc me <= call_inc k)%N ->
    s' = refute c (touch s (self c)) me (call_inc k) ->
    evs = (if dead_or_left (rst me) then [EvJoin (self c) (raddr me) (rmeta me)] else []) ->
    outcome c s k s' evs
| Recorded r r' m ts : lk s (call_name k) = Some r -> recorded c s k r r' m ts evs ->
    s' = commit s (call_name k) r' m ts ->
    outcome c s k s' evs
| Confirmed inc name from r sA : k = CSuspect inc name from -> lk s name = Some r -> (rinc r <= inc)%N ->
    live_timer name (timers s) <> None -> confirmed s inc name from sA ->
    s' = sA -> evs = [] ->
    outcome c s k s' evs
| Expired inc name from r sA : k = CSuspect inc name from -> lk s name = Some r -> (rinc r <= inc)%N ->
    live_timer name (timers s) <> None -> confirmed s inc name from sA -> rst r = Suspect ->
    outcome c sA (CDead (rinc r) name (self c)) s' evs ->
    outcome c s k s' evs.
(* The inductions over [outcome] name the hypotheses of the six cases alike, with _ for what a proof does not use:
     induction 1 as [s k s' evs Hs He | s k s' evs inc name addr meta vsn b Ek Ln Al _ IH
                    | s k s' evs me Hn FL Hb L Ge Es Ee | s k s' evs r r' m ts L Hr Es
                    | s k s' evs inc name from r sA Ek L Ge LT HC Es Ee
                    | s k s' evs inc name from r sA Ek L Ge LT HC A _ IH] *)

Lemma dead_outcome c s inc name from :
  outcome c s (CDead inc name from) (fst (do_dead c s inc name from)) (snd (do_dead c s inc name from)).
Proof.
  unfold do_dead. fold (lk s name). destruct (lk s name) as [r|] eqn:L; [|apply Ignored; auto].
  destruct (N.ltb_spec inc (rinc r)) as [Lt|Ge]; [apply Ignored; auto|].
  destruct (dead_or_left (rst r)) eqn:DL; [apply Ignored; auto|].
  destruct (N.eqb name (self c) && negb (leaving s)) eqn:E; cbn [fst snd].
  - apply andb_true_iff in E. destruct E as [Es Lv]. apply N.eqb_eq in Es. apply negb_true_iff in Lv. subst name.
    eapply Refuted with (me := r); cbn; auto; [rewrite Lv; apply andb_false_r | rewrite DL; reflexivity].
  - eapply Recorded; [exact L | | reflexivity]. constructor; auto.
    intros ->. rewrite N.eqb_refl in E. destruct (leaving s); [reflexivity | discriminate].
Qed.

Lemma suspect_outcome c s inc name from :
  outcome c s (CSuspect inc name from) (fst (do_suspect c s inc name from)) (snd (do_suspect c s inc name from)).
Proof.
  unfold do_suspect. fold (lk s name). destruct (lk s name) as [r|] eqn:L; [|apply Ignored; auto].
  destruct (N.ltb_spec inc (rinc r)) as [Lt|Ge]; [apply Ignored; auto|].
  destruct (live_timer name (timers s)) as [t|] eqn:LT.
  - destruct ((tk t <=? tn t) || Nmem from (tconfs t)); [apply Ignored; auto|].
    assert (Tn : tname t = name).
    { apply find_some in LT. destruct LT as [_ E]. apply andb_true_iff in E. apply N.eqb_eq, E. }
    set (t' := mkT _ _ _ _ _ _ _ _). set (ts' := map _ (timers s)).
    assert (HTS : forall u, In u ts' -> tlive u = true -> In u (timers s) \/ tname u = name).
    { intros u Hu _. apply in_map_iff in Hu. destruct Hu as [w [E Hw]].
      destruct (N.eqb (tname w) name && tlive w); [right; subst u; exact Tn | left; subst u; exact Hw]. }
    assert (NN : live_timer name (timers s) <> None) by congruence.
    destruct (0 <? _); cbn [fst snd].
    + eapply Confirmed; eauto. exists ts'. auto.
    + set (s2 := set_timers _ _).
      assert (C2 : confirmed s inc name from s2).
      { exists (remove_timer t' ts'). split; [reflexivity|]. intros u Hu. apply filter_In in Hu. apply HTS, Hu. }
      unfold timer_fire. change (alookup (tname t') (recs s2)) with (lk s (tname t)). rewrite Tn, L.
      destruct (st_eqb (rst r) Suspect && Z.eqb (rsince r) (tct t')) eqn:E; [|eapply Confirmed; eauto].
      eapply Expired; eauto; [destruct (rst r); try discriminate; reflexivity|].
      change (tname t') with (tname t). rewrite Tn. apply dead_outcome.
  - destruct (st_eqb (rst r) Alive) eqn:SA; cbn [negb]; [|apply Ignored; auto].
    assert (A : rst r = Alive) by (destruct (rst r); try discriminate; reflexivity).
    destruct (N.eqb_spec name (self c)) as [->|Ns].
    + destruct (fixed c && leaving s) eqn:FL; [apply Ignored; auto|].
      eapply Refuted with (me := r); cbn; auto; [rewrite A | rewrite touch_no_live by exact LT | rewrite A]; reflexivity.
    + eapply Recorded; [exact L | econstructor; eauto | reflexivity].
Qed.

Lemma alive_outcome c s inc name addr meta vsn b :
  outcome c s (CAlive inc name addr meta vsn b) (fst (do_alive c s inc name addr meta vsn b))
          (snd (do_alive c s inc name addr meta vsn b)).
Proof.
  unfold do_alive. destruct (leaving s && N.eqb name (self c)) eqn:LS; [apply Ignored; auto|].
  destruct (vsn_bad vsn) eqn:V; [apply Ignored; auto|].
  (* the claim against the record it is compared with *)
  assert (Apply : forall s1 r u, lk s1 name = Some r -> leaving s1 = leaving s -> can_replace c s1 r = can_replace c s r ->
            (u = false /\ raddr r = addr \/ u = true /\ raddr r <> addr /\ is_allowed c addr = true /\ can_replace c s r = true) ->
            outcome c s1 (CAlive inc name addr meta vsn b) (fst (alive_apply c s1 r u inc name addr meta vsn b))
                    (snd (alive_apply c s1 r u inc name addr meta vsn b))).
  { intros s1 r u L Lv CR Hu. unfold alive_apply.
    destruct ((inc <=? rinc r)%N && negb (N.eqb name (self c)) && negb u) eqn:G1; [apply Ignored; auto|].
    destruct ((inc <? rinc r)%N && N.eqb name (self c)) eqn:G2; [apply Ignored; auto|].
    assert (Ha : raddr r = addr \/ is_allowed c addr = true /\ can_replace c s1 r = true).
    { destruct Hu as [[_ E]|[_ [N1 [Al C1]]]]; [left; exact E | right; rewrite CR; auto]. }
    destruct (N.eqb_spec name (self c)) as [->|Ns]; rewrite ?andb_true_r, ?andb_false_r in *; cbn [negb andb] in *.
    - apply N.ltb_ge in G2. destruct b; cbn [negb].
      + eapply Recorded; [exact L | constructor; auto | reflexivity].
        rewrite Lv, LS. reflexivity.
      + destruct (N.eqb inc (rinc r) && N.eqb meta (rmeta r) && Nlist_eqb vsn (rvsn r)); cbn [fst snd];
          [apply Ignored; auto|].
        eapply Refuted with (me := r); cbn; auto. rewrite Lv, LS. apply andb_false_r.
    - eapply Recorded; [exact L | constructor; auto | reflexivity];
        [apply andb_false_iff; right; apply N.eqb_neq, Ns|].
      destruct u; [right; right; rewrite CR; destruct Hu as [[? _]|[_ H]]; [discriminate | exact H]|].
      left. rewrite andb_true_r in G1. apply N.leb_gt, G1. }
  unfold alive_find. fold (lk s name). destruct (lk s name) as [r|] eqn:L.
  - destruct (N.eqb_spec (raddr r) addr) as [E|N1]; [apply Apply; auto|].
    destruct (is_allowed c addr) eqn:Al; [|apply Ignored; auto].
    destruct (can_replace c s r) eqn:CR; [apply Apply; auto; right; auto|].
    apply Ignored; [auto|]. destruct (has_conflict c); [right; exists r, addr; reflexivity | auto].
  - destruct (is_allowed c addr) eqn:Al; [|apply Ignored; auto].
    eapply Placeholder; eauto. apply Apply; auto.
    pose proof (lk_place s name (new_rec addr meta vsn) name L) as E. rewrite N.eqb_refl in E. exact E.
Qed.

Theorem call_outcome c s k : outcome c s k (fst (do_call c s k)) (snd (do_call c s k)).
Proof. destruct k; [apply alive_outcome | apply suspect_outcome | apply dead_outcome]. Qed.

Lemma outcome_keys c s k s' evs : outcome c s k s' evs -> keys_ok s -> keys_ok s'.
Proof.
  unfold keys_ok.
  induction 1 as [s k s' evs [->| ->] _ | s k s' evs inc name addr meta vsn b _ Ln _ _ IH | s k s' evs me _ _ _ _ _ -> _
                 | s k s' evs r r' m ts _ _ -> | s k s' evs inc name from r sA _ _ _ _ [ts [-> _]] -> _
                 | s k s' evs inc name from r sA _ _ _ _ [ts [-> _]] _ _ IH]; intro K; auto.
  - apply IH. cbn [place recs]. rewrite map_app. apply NoDup_app_one; [exact K | apply alookup_none_notin, Ln].
  - apply NoDup_aset, K.
  - apply NoDup_aset, K.
Qed.

Lemma do_call_keys c s k : keys_ok s -> keys_ok (fst (do_call c s k)).
Proof. exact (outcome_keys c s k _ _ (call_outcome c s k)). Qed.

Lemma outcome_score c s k s' evs : outcome c s k s' evs -> score s' = score s \/ call_name k = self c.
Proof.
  induction 1 as [s k s' evs [->| ->] _ | s k s' evs inc name addr meta vsn b _ _ _ _ IH | s k s' evs me Hn _ _ _ _ _ _
                 | s k s' evs r r' m ts _ _ -> | s k s' evs inc name from r sA _ _ _ _ [ts [-> _]] -> _
                 | s k s' evs inc name from r sA -> _ _ _ [ts [-> _]] _ _ IH]; auto.
Qed.

Lemma outcome_leaving c s k s' evs : outcome c s k s' evs -> leaving s' = leaving s.
Proof.
  induction 1 as [s k s' evs [->| ->] _ | s k s' evs inc name addr meta vsn b _ _ _ _ IH | s k s' evs me _ _ _ _ _ -> _
                 | s k s' evs r r' m ts _ _ -> | s k s' evs inc name from r sA _ _ _ _ [ts [-> _]] -> _
                 | s k s' evs inc name from r sA _ _ _ _ [ts [-> _]] _ _ IH]; auto.
Qed.

Lemma do_call_leaving c s k : leaving (fst (do_call c s k)) = leaving s.
Proof. exact (outcome_leaving c s k _ _ (call_outcome c s k)). Qed.

(* What a claim about another name leaves alone.  Of the name X: its record, and no timer comes to run for it;
   of the node: the flag, and its counter if X is the node *)
Definition keeps (c : cfg) (X : N) (s s' : nstate) : Prop :=
  lk s' X = lk s X /\ leaving s' = leaving s /\ (X = self c -> linc s' = linc s) /\
  (forall u, In u (timers s') -> tlive u = true -> In u (timers s) \/ tname u <> X).

Lemma keeps_refl c X s : keeps c X s s.
Proof. unfold keeps. auto. Qed.

Lemma keeps_trans c X s1 s2 s3 : keeps c X s1 s2 -> keeps c X s2 s3 -> keeps c X s1 s3.
Proof.
  intros [A1 [A2 [A3 A4]]] [B1 [B2 [B3 B4]]]. unfold keeps. spl; try congruence.
  - intro E. rewrite B3, A3; auto.
  - intros u Hu Lu. destruct (B4 u Hu Lu); auto.
Qed.

Lemma confirmed_keeps c X s inc name from sA : confirmed s inc name from sA -> name <> X -> keeps c X s sA.
Proof.
  intros [ts [-> Hts]] Hn. unfold keeps. spl; auto.
  intros u Hu Lu. destruct (Hts u Hu Lu) as [Hin| ->]; auto.
Qed.

Lemma outcome_keeps c X s k s' evs : outcome c s k s' evs -> call_name k <> X -> keeps c X s s'.
Proof.
  induction 1 as [s k s' evs [->| ->] _ | s k s' evs inc name addr meta vsn b -> Ln _ _ IH | s k s' evs me Hn _ _ _ _ -> _
                 | s k s' evs r r' m ts _ Hr -> | s k s' evs inc name from r sA -> _ _ _ HC -> _
                 | s k s' evs inc name from r sA -> _ _ _ HC _ _ IH]; intro Hk.
  - apply keeps_refl.
  - unfold keeps. spl; auto. intros u Hu Lu. left. apply (touch_timers _ _ _ Hu Lu).
  - eapply keeps_trans; [|apply IH, Hk]. unfold keeps. spl; auto.
    rewrite lk_place by exact Ln. destruct (N.eqb_spec X name); [cbn in Hk; congruence | reflexivity].
  - unfold keeps. rewrite lk_refute. spl; auto.
    + destruct (N.eqb_spec X (self c)); [congruence | reflexivity].
    + congruence.
    + intros u Hu Lu. left. apply (touch_timers _ _ _ Hu Lu).
  - unfold keeps. rewrite lk_commit. spl; auto.
    + destruct (N.eqb_spec X (call_name k)); [congruence | reflexivity].
    + intros u Hu Lu.
      destruct Hr as [| ? ? ? ? t _ _ _ _ Et |]; try (left; apply (orphan_live _ _ _ Hu Lu)).
      apply in_app_or in Hu. destruct Hu as [Hu|[<-|[]]]; [left; exact Hu | right; rewrite Et; exact Hk].
  - eapply confirmed_keeps; eassumption.
  - eapply keeps_trans; [eapply confirmed_keeps; eassumption | apply IH, Hk].
Qed.

(* C01: a stale or weaker claim is a no-op *)
Section Stale.
Variable c : cfg.
Variable s : nstate.

Lemma alive_stale_other inc name addr meta vsn b r :
  alookup name (recs s) = Some r -> raddr r = addr -> name <> self c -> (inc <= rinc r)%N ->
  do_alive c s inc name addr meta vsn b = (s, []).
Proof.
  intros L A Hn Hi. unfold do_alive, alive_find, alive_apply. rewrite L.
  destruct (N.eqb_spec name (self c)); [contradiction|]. rewrite andb_false_r.
  destruct (vsn_bad vsn); [reflexivity|].
  subst addr. rewrite N.eqb_refl.
  assert (E : (inc <=? rinc r)%N = true) by (apply N.leb_le; exact Hi). rewrite E. reflexivity.
Qed.

Lemma alive_stale_self inc addr meta vsn b r :
  alookup (self c) (recs s) = Some r -> raddr r = addr -> (inc < rinc r)%N ->
  do_alive c s inc (self c) addr meta vsn b = (s, []).
Proof.
  intros L A Hi. unfold do_alive, alive_find, alive_apply. rewrite L. rewrite N.eqb_refl.
  destruct (leaving s); [reflexivity|].
  destruct (vsn_bad vsn); [reflexivity|].
  subst addr. rewrite N.eqb_refl.
  rewrite andb_false_r.
  assert (E : (inc <? rinc r)%N = true) by (apply N.ltb_lt; exact Hi). rewrite E. reflexivity.
Qed.

(* alive with a different address that may not reclaim: only the conflict delegate hears of it *)
Lemma alive_conflict inc name addr meta vsn b r :
  negb (leaving s && N.eqb name (self c)) = true -> vsn_bad vsn = false ->
  alookup name (recs s) = Some r -> raddr r <> addr -> is_allowed c addr = true ->
  can_replace c s r = false ->
  do_alive c s inc name addr meta vsn b =
  (s, if has_conflict c then [EvConflict name (raddr r) addr] else []).
Proof.
  intros Hl Hv L A Hal Hst. unfold do_alive, alive_find. apply negb_true_iff in Hl. rewrite Hl, Hv, L.
  destruct (N.eqb_spec (raddr r) addr); [contradiction|]. rewrite Hal, Hst. reflexivity.
Qed.

Lemma alive_disallowed inc name addr meta vsn b :
  is_allowed c addr = false ->
  (forall r, alookup name (recs s) = Some r -> raddr r <> addr) ->
  do_alive c s inc name addr meta vsn b = (s, []).
Proof.
  intros Hal Hne. unfold do_alive, alive_find.
  destruct (leaving s && N.eqb name (self c)); [reflexivity|].
  destruct (vsn_bad vsn); [reflexivity|].
  destruct (alookup name (recs s)) as [r|] eqn:L.
  - specialize (Hne r eq_refl). destruct (N.eqb_spec (raddr r) addr); [contradiction|]. rewrite Hal. reflexivity.
  - rewrite Hal. reflexivity.
Qed.

Lemma suspect_stale inc name from :
  no_live name (timers s) \/ (exists r, alookup name (recs s) = Some r /\ (inc < rinc r)%N) \/ alookup name (recs s) = None ->
  (match alookup name (recs s) with
   | None => True
   | Some r => (inc < rinc r)%N \/ rst r = Dead \/ rst r = Left
   end) ->
  do_suspect c s inc name from = (s, []).
Proof.
  intros HT H. unfold do_suspect. destruct (alookup name (recs s)) as [r|] eqn:L; [|reflexivity].
  destruct (N.ltb_spec inc (rinc r)) as [Lt|Ge]; [reflexivity|].
  destruct H as [H|H]; [lia|].
  destruct HT as [HT|[[r' [E Lt]]|E]]; [|inversion E; subst; lia|discriminate].
  unfold no_live in HT. rewrite HT.
  destruct H as [E|E]; rewrite E; reflexivity.
Qed.

Lemma dead_stale inc name from :
  no_live name (timers s) \/ (exists r, alookup name (recs s) = Some r /\ (inc < rinc r)%N) \/ alookup name (recs s) = None ->
  (match alookup name (recs s) with
   | None => True
   | Some r => (inc < rinc r)%N \/ rst r = Dead \/ rst r = Left
   end) ->
  do_dead c s inc name from = (s, []).
Proof.
  intros HT H. unfold do_dead. destruct (alookup name (recs s)) as [r|] eqn:L; [|reflexivity].
  destruct (N.ltb_spec inc (rinc r)) as [Lt|Ge]; [reflexivity|].
  destruct H as [H|H]; [lia|].
  destruct HT as [HT|[[r' [E Lt]]|E]]; [|inversion E; subst; lia|discriminate].
  rewrite (orphan_no_live _ _ HT), set_timers_same.
  destruct H as [E|E]; rewrite E; reflexivity.
Qed.

End Stale.

Lemma alive_other c s inc name addr meta vsn b r :
  lk s name = Some r -> name <> self c -> raddr r = addr -> vsn_bad vsn = false ->
  do_alive c s inc name addr meta vsn b =
  if (inc <=? rinc r)%N then (s, [])
  else (commit s name (mkRec inc Alive addr meta (if (6 <=? length vsn)%nat then firstn 6 vsn else rvsn r)
                             (if st_eqb (rst r) Alive then rsince r else now s))
               (BAlive inc name addr meta vsn) (orphan name (timers s)),
        if dead_or_left (rst r) then [EvJoin name addr meta]
        else if negb (N.eqb (rmeta r) meta) then [EvUpdate name addr meta] else []).
Proof.
  intros L Hn Ea Vb. apply N.eqb_neq in Hn. apply N.eqb_eq in Ea.
  unfold do_alive, alive_find, alive_apply. fold (lk s name). rewrite L, Hn, Ea, Vb.
  rewrite !andb_false_r, !andb_true_r. destruct (inc <=? rinc r)%N; reflexivity.
Qed.

Lemma alive_unknown_placed c s inc name addr meta vsn b :
  lk s name = None -> name <> self c -> is_allowed c addr = true -> vsn_bad vsn = false ->
  do_alive c s inc name addr meta vsn b = do_alive c (place s name (new_rec addr meta vsn)) inc name addr meta vsn b.
Proof.
  intros L Hn Al Vb. apply N.eqb_neq in Hn. unfold do_alive, alive_find.
  fold (lk s name) (lk (place s name (new_rec addr meta vsn)) name).
  rewrite L, Hn, Al, Vb, !andb_false_r, lk_place, !N.eqb_refl by exact L. reflexivity.
Qed.

(* C05: one entry of a push/pull snapshot that reports a member Alive at incarnation i lifts the
   receiver's record of that member (same address) to at least i, whatever it held *)
Lemma merge_alive_lifts c s inc name addr meta vsn r :
  lk s name = Some r -> name <> self c -> raddr r = addr -> vsn_bad vsn = false ->
  exists r', lk (fst (do_merge c s Alive inc name addr meta vsn)) name = Some r' /\ (inc <= rinc r')%N /\ (rinc r <= rinc r')%N.
Proof.
  intros L Hn Ea Vb. cbn [do_merge]. rewrite (alive_other c s inc name addr meta vsn false r L Hn Ea Vb).
  destruct (N.leb_spec inc (rinc r)); cbn [fst].
  - exists r. split; [exact L | lia].
  - rewrite lk_commit, N.eqb_refl. eexists. split; [reflexivity | cbn [rinc]; lia].
Qed.

(* C06: a refutation that gets in between the two halves of the timeout callback.  The callback checks, unlocks, and
   then applies a death claim at the incarnation it checked; if the member's alive message at a higher incarnation is
   processed in between, the death claim is stale and changes nothing *)
Lemma refutation_before_death_claim c s inc name addr meta vsn r from :
  lk s name = Some r -> name <> self c -> raddr r = addr -> (rinc r < inc)%N -> vsn_bad vsn = false ->
  let s' := fst (do_alive c s inc name addr meta vsn false) in
  do_dead c s' (rinc r) name from = (s', []) /\
  exists r', lk s' name = Some r' /\ rst r' = Alive /\ rinc r' = inc.
Proof.
  intros L Hn Ea Lt Vb. cbv zeta. rewrite (alive_other c s inc name addr meta vsn false r L Hn Ea Vb).
  destruct (N.leb_spec inc (rinc r)); [lia|]. cbn [fst].
  set (s' := commit _ _ _ _ _). assert (L' : lk s' name = Some _) by (unfold s'; rewrite lk_commit, N.eqb_refl; reflexivity).
  split; [|eauto]. unfold do_dead. fold (lk s' name). rewrite L'. cbn [rinc]. rewrite (proj2 (N.ltb_lt _ _) Lt). reflexivity.
Qed.

Lemma alive_unknown c s inc name addr meta vsn b :
  lk s name = None -> is_allowed c addr = true -> vsn_bad vsn = false ->
  leaving s && N.eqb name (self c) = false -> (0 < inc)%N -> negb b && N.eqb name (self c) = false ->
  do_alive c s inc name addr meta vsn b =
  (commit (place s name (new_rec addr meta vsn)) name
          (mkRec inc Alive addr meta (if (6 <=? length vsn)%nat then firstn 6 vsn else rvsn (new_rec addr meta vsn)) (now s))
          (BAlive inc name addr meta vsn) (orphan name (timers s)),
   [EvJoin name addr meta]).
Proof.
  intros Ln Al Vb LS Hi Hb. unfold do_alive, alive_find. fold (lk s name). rewrite LS, Vb, Ln, Al.
  unfold alive_apply. cbn [new_rec rinc rst]. rewrite Hb.
  replace (inc <=? 0)%N with false by (symmetry; apply N.leb_gt, Hi).
  replace (inc <? 0)%N with false by (symmetry; apply N.ltb_ge; lia). reflexivity.
Qed.

(* [outcome] does not say why a claim is ignored, nor that a refuted alive claim differs from the record held;
   where that matters the handler is followed on the input in question *)
Lemma alive_unknown_cases c s inc name addr meta vsn b :
  lk s name = None -> name <> self c -> (0 < inc)%N ->
  let k := CAlive inc name addr meta vsn b in
  let s1 := place s name (new_rec addr meta vsn) in
  do_call c s k = (s, []) \/
  exists r' m ts evs, recorded c s1 k (new_rec addr meta vsn) r' m ts evs /\ do_call c s k = (commit s1 name r' m ts, evs).
Proof.
  intros L Ns Hi. cbn [do_call]. unfold do_alive, alive_find. fold (lk s name). rewrite L.
  apply N.eqb_neq in Ns. rewrite Ns, andb_false_r.
  destruct (vsn_bad vsn); [auto|]. destruct (is_allowed c addr); [right | auto].
  unfold alive_apply. rewrite Ns. cbn [new_rec rinc]. rewrite (proj2 (N.leb_gt _ _) Hi), !andb_false_r.
  do 4 eexists. split; [constructor | reflexivity]; auto.
  - apply andb_false_iff. right. exact Ns.
  - apply N.eqb_neq in Ns. tauto.
Qed.

Lemma alive_own_echo c s r : lk s (self c) = Some r ->
  let s' := fst (do_alive c s (rinc r) (self c) (raddr r) (rmeta r) (rvsn r) false) in s' = s \/ s' = touch s (self c).
Proof.
  intro L. cbv zeta. unfold do_alive. destruct (leaving s && _); [auto|]. destruct (vsn_bad _); [auto|].
  unfold alive_find. fold (lk s (self c)). rewrite L, N.eqb_refl.
  unfold alive_apply, Nlist_eqb. rewrite !N.eqb_refl, N.ltb_irrefl, (proj2 (list_eqb_eq N.eqb N.eqb_eq _ _) eq_refl).
  rewrite andb_false_r. auto.
Qed.

(* [rec_dead] as an equation *)
Lemma dead_recorded c s inc name from r :
  lk s name = Some r -> (rinc r <= inc)%N -> dead_or_left (rst r) = false -> (name = self c -> leaving s = true) ->
  let from' := if N.eqb name (self c) && fixed c then name else from in
  do_dead c s inc name from =
  (commit s name (mkRec inc (if N.eqb name from' then Left else Dead) (raddr r) (rmeta r) (rvsn r) (now s))
          (BDead inc name from') (orphan name (timers s)),
   [EvLeave name (raddr r) (rmeta r)]).
Proof.
  intros L Ge DL Lv. cbv zeta. unfold do_dead. fold (lk s name). rewrite L, (proj2 (N.ltb_ge _ _) Ge), DL.
  destruct (N.eqb_spec name (self c)) as [E|_]; [rewrite (Lv E)|]; reflexivity.
Qed.

Lemma dead_claim_kills c s inc name from r :
  lk s name = Some r -> (rinc r <= inc)%N -> (name = self c -> leaving s = true) ->
  exists r', lk (fst (do_dead c s inc name from)) name = Some r' /\ dead_or_left (rst r') = true.
Proof.
  intros L Ge Lv. unfold do_dead. fold (lk s name). rewrite L. destruct (N.ltb_spec inc (rinc r)); [lia|].
  destruct (dead_or_left (rst r)) eqn:D; [exists r; auto|].
  destruct (N.eqb_spec name (self c)) as [E|_]; [rewrite (Lv E)|]; cbn [negb andb fst]; rewrite lk_set_rec_same;
    (eexists; split; [reflexivity|]); cbn [rst]; destruct (N.eqb _ _); reflexivity.
Qed.

(* Claims about the running node itself.  It lists itself alive and runs no timer for its own name: a claim below
   its incarnation is ignored, an exact echo of its record too, anything else is refuted *)
Section SelfClaims.
Variables (c : cfg) (s : nstate) (r : rec).
Hypotheses (Lv : leaving s = false) (L : lk s (self c) = Some r) (A : rst r = Alive) (NL : no_live (self c) (timers s)).

Lemma suspect_about_self j from :
  do_suspect c s j (self c) from = if (j <? rinc r)%N then (s, []) else (refute c s r j, []).
Proof.
  unfold do_suspect. fold (lk s (self c)). rewrite L.
  unfold no_live in NL. rewrite NL, A, N.eqb_refl, Lv, andb_false_r. reflexivity.
Qed.

Lemma dead_about_self j from :
  do_dead c s j (self c) from = if (j <? rinc r)%N then (s, []) else (refute c s r j, []).
Proof.
  unfold do_dead. fold (lk s (self c)). rewrite L.
  rewrite (orphan_no_live _ _ NL), set_timers_same, A, N.eqb_refl, Lv. reflexivity.
Qed.

Lemma alive_about_self j m v : vsn_bad v = false ->
  do_alive c s j (self c) (raddr r) m v false =
  if (j <? rinc r)%N then (s, [])
  else if N.eqb j (rinc r) && N.eqb m (rmeta r) && Nlist_eqb v (rvsn r) then (s, []) else (refute c s r j, []).
Proof.
  intro Vb. unfold do_alive, alive_find, alive_apply. fold (lk s (self c)). rewrite L, Lv, Vb, !N.eqb_refl. cbn [negb andb].
  rewrite andb_false_r, andb_true_r. cbn [andb]. destruct (j <? rinc r)%N; [reflexivity|].
  rewrite (orphan_no_live _ _ NL), set_timers_same, A. reflexivity.
Qed.
End SelfClaims.

Lemma reap_keeps c s n r :
  lk s n = Some r -> dead_or_left (rst r) && (gtd c <? now s - rsince r) = false -> lk (do_reap c s) n = Some r.
Proof. intros L E. apply alookup_filter_keep; [exact L|]. cbn [fst snd]. rewrite E. reflexivity. Qed.

(* since fix bca6b25 the node's own record is never reaped *)
Lemma reap_keeps_self c s r : fixed c = true -> lk s (self c) = Some r -> lk (do_reap c s) (self c) = Some r.
Proof. intros F L. apply alookup_filter_keep; [exact L|]. cbn [fst snd]. rewrite F, N.eqb_refl. apply orb_true_r. Qed.

(* C03: resetNodes (the reap at the wrap of the probe cursor) keeps every record that is not Dead/Left;
   this is the hypothesis "the reset list still contains the peer" of Cursor_proofs.ticks_until_selected *)
Lemma reap_keeps_live c s n r :
  lk s n = Some r -> dead_or_left (rst r) = false -> lk (do_reap c s) n = Some r.
Proof. intros L D. apply reap_keeps; [exact L|]. rewrite D. reflexivity. Qed.

(* ... and only removes Dead/Left records older than GossipToTheDeadTime *)
Lemma reap_removes_only_old_dead c s n r :
  keys_ok s -> lk s n = Some r -> lk (do_reap c s) n = None ->
  dead_or_left (rst r) = true /\ gtd c < now s - rsince r.
Proof.
  intros _ L Hn. destruct (dead_or_left (rst r) && (gtd c <? now s - rsince r)) eqn:E.
  - apply andb_true_iff in E. destruct E as [E1 E2]. apply Z.ltb_lt in E2. auto.
  - rewrite (reap_keeps c s n r L E) in Hn. discriminate.
Qed.
