(* Below_cluster.v — C05 for the whole cluster, every schedule (failed probes, suspicion timers,
   accusations, refutations, gossip, push/pull, duplication, reordering, loss, UpdateNode, Leave):
   no claim anywhere — in a node's records, in a broadcast queue, on the network — carries an incarnation
   above the counter of the member it is about.  Hence a refutation outranks every claim in the system,
   and whoever processes it lists the member alive with its latest metadata. *)
From VF Require Import Base Core Core_lemmas Core_inv Core_props Below_proofs Cluster Cluster_proofs.
Local Open Scope Z_scope.

Definition owner_le (w : world) (n inc : N) : Prop :=
  forall c s, In (c, s) (wnodes w) -> self c = n -> (inc <= linc s)%N.

Definition pname (p : pmsg) : N := match p with PB m => mname m | PS _ _ n _ _ _ => n end.
Definition pinc (p : pmsg) : N := match p with PB m => minc m | PS _ i _ _ _ _ => i end.

Record BW (w : world) : Prop := mkBW {
  bw_nodes : forall c s, In (c, s) (wnodes w) -> fixed c = true /\ FInv c s /\ bounded c (owner_le w) s;
  bw_pool : forall p, In p (wpool w) -> owner_le w (pname p) (pinc p);
  bw_names : NoDup (names w) }.

Lemma bounded_mono c (P P' : N -> N -> Prop) s : (forall n i, P n i -> P' n i) -> bounded c P s -> bounded c P' s.
Proof.
  intros M [H1 H2]. constructor.
  - intros n r Hin. specialize (H1 n r Hin). unfold ok_claim in *. destruct (N.eqb n (self c)); [destruct H1; auto | auto].
  - intros k m Hin. specialize (H2 k m Hin). unfold ok_claim in *. destruct (N.eqb (mname m) (self c)); [destruct H2; auto | auto].
Qed.

(* the operation a cluster action makes its node execute: [op_from] as a function (op_from_gact_op), to state [gact_ok] *)
Definition gact_op (w : world) (g : gact) : option (nat * op) :=
  match g with
  | GA (WGossip _) | GA (WSnapshot _) => None
  | GA (WDeliver i k) => match nth_error (wpool w) k with Some p => Some (i, op_of p) | None => None end
  | GA (WUpdate i meta wt) => Some (i, OUpdate meta wt)
  | GA (WLeave i wt) => Some (i, OLeave wt)
  | GA (WAdvance i dt) => Some (i, OAdvance dt)
  | GA (WReap i) => Some (i, OReap)
  | GProbeFail i n => match nth_error (wnodes w) i with
                      | Some (c, s) => match alookup n (recs s) with
                                       | Some r => Some (i, OSuspect (rinc r) n (self c))
                                       | None => None
                                       end
                      | None => None
                      end
  end.

(* incarnations stay below the largest representable value (Core_inv.op_ok) *)
Definition gact_ok (w : world) (g : gact) : Prop :=
  match gact_op w g with
  | Some (i, o) => match nth_error (wnodes w) i with Some (c, s) => op_ok c s o | None => True end
  | None => True
  end.

Lemma op_from_gact_op w c s g i o :
  nth_error (wnodes w) i = Some (c, s) -> op_from w c s g i o -> gact_op w g = Some (i, o).
Proof.
  intros Hi Ho. revert Hi. destruct Ho as [j k p Hk| | | | |j n r L]; intro Hi; cbn [gact_op]; try reflexivity;
    [rewrite Hk | rewrite Hi; unfold lk in L; rewrite L]; reflexivity.
Qed.

(* [B n inc]: the incarnation inc is within what member n has announced.  Every claim in the cluster stays
   within B as long as B only grows and covers every node's own counter.  With B = "the member's counter now"
   this is C05_claims_below_owner; with B = "a counter it had at some moment of the run", the version with
   restarts (Below_restart). *)
Definition within (B : N -> N -> Prop) (w : world) : Prop :=
  (forall c s, In (c, s) (wnodes w) ->
     fixed c = true /\ FInv c s /\ bounded c B s /\ forall i, (i <= linc s)%N -> B (self c) i) /\
  (forall p, In p (wpool w) -> B (pname p) (pinc p)).

Lemma ok_claim_within (B : N -> N -> Prop) c s n inc : (forall i, (i <= linc s)%N -> B (self c) i) -> ok_claim c B (linc s) n inc -> B n inc.
Proof.
  intros Hown H. unfold ok_claim in H. destruct (N.eqb_spec n (self c)) as [->|_]; [|exact H].
  destruct H; auto.
Qed.

Lemma within_ok_claim (B : N -> N -> Prop) c l n inc : B n inc -> ok_claim c B l n inc.
Proof. intro H. unfold ok_claim. destruct (N.eqb n (self c)); auto. Qed.

Lemma held_within (B : N -> N -> Prop) c s p : bounded c B s -> (forall i, (i <= linc s)%N -> B (self c) i) -> held s p -> B (pname p) (pinc p).
Proof.
  intros Hb Hown [[k [m [Hin ->]]]|[n [r [Hin ->]]]]; apply (ok_claim_within B c s _ _ Hown);
    [apply (bd_bq _ _ _ Hb k m Hin) | apply (bd_recs _ _ _ Hb n r Hin)].
Qed.

(* in a world within B every claim is within B: where [ok_claim] says "or within the node's own counter", B covers that *)
Lemma within_claims (B : N -> N -> Prop) w : within B w ->
  (forall c s n r, In (c, s) (wnodes w) -> lk s n = Some r -> B n (rinc r)) /\
  (forall c s k m, In (c, s) (wnodes w) -> In (k, m) (bq s) -> B (mname m) (minc m)) /\
  (forall p, In p (wpool w) -> B (pname p) (pinc p)).
Proof.
  intros [Hn Hp]. split; [|split; [|exact Hp]].
  - intros c s n r Hin L. destruct (Hn c s Hin) as [_ [_ [Hb Hown]]].
    apply (ok_claim_within B c s _ _ Hown), (bd_recs _ _ _ Hb), alookup_some_in, L.
  - intros c s k m Hin Hm. destruct (Hn c s Hin) as [_ [_ [Hb Hown]]].
    apply (ok_claim_within B c s _ _ Hown), (bd_bq _ _ _ Hb k m Hm).
Qed.

Lemma op_from_claim_ok (B : N -> N -> Prop) w c s g i o : within B w -> In (c, s) (wnodes w) -> op_from w c s g i o -> op_claim_ok c B s o.
Proof.
  intros [Hn Hp] Hin [j k p Hk| | | | |j n r L]; try exact I.
  - specialize (Hp p (nth_error_In _ _ Hk)). destruct p as [[| |]|]; cbn [op_of op_claim_ok pname pinc mname minc] in *;
      apply within_ok_claim; assumption.
  - destruct (Hn c s Hin) as [_ [_ [Hb _]]]. apply (bd_recs _ _ _ Hb), alookup_some_in, L.
Qed.

Theorem gstep_within (B B' : N -> N -> Prop) w g :
  (forall n, B n 0%N) -> within B w -> gact_ok w g ->
  let w' := fst (gstep w g) in
  (* the nodes are those there were and no counter went down: with this the caller, whose B' speaks of w', shows
     that B' extends B and covers the counters of w' *)
  names w' = names w /\
  (forall c s', In (c, s') (wnodes w') -> exists s, In (c, s) (wnodes w) /\ (linc s <= linc s')%N) /\
  ((forall n i, B n i -> B' n i) ->
   (forall c s, In (c, s) (wnodes w') -> forall i, (i <= linc s)%N -> B' (self c) i) ->
   within B' w').
Proof.
  intros B0 HW Hok. pose proof HW as [Hn Hp]. cbv zeta.
  assert (Old : forall c s, In (c, s) (wnodes w) ->
            (exists s0, In (c, s0) (wnodes w) /\ (linc s0 <= linc s)%N) /\ fixed c = true /\ FInv c s /\ bounded c B s).
  { intros c s Hin. destruct (Hn c s Hin) as [F [I [Hb _]]]. split; [exists s; split; [exact Hin | lia] | auto]. }
  (* the nodes and the pool of the new world are still within B; B' comes in at the end *)
  assert (Step : names (fst (gstep w g)) = names w /\
    (forall c s', In (c, s') (wnodes (fst (gstep w g))) ->
       (exists s, In (c, s) (wnodes w) /\ (linc s <= linc s')%N) /\ fixed c = true /\ FInv c s' /\ bounded c B s') /\
    (forall p, In p (wpool (fst (gstep w g))) -> B (pname p) (pinc p))).
  { destruct (gstep_delta w g) as [i c s ps Hi Hps | i c s o Hi Ho |]; cbn [fst wnodes wpool].
    - split; [reflexivity|]. split; [exact Old|].
      intros p Hin. apply in_app_or in Hin. destruct Hin as [Hin|Hin]; [|apply Hp, Hin].
      destruct (Hn c s (nth_error_In _ _ Hi)) as [_ [_ [Hb Hown]]]. eapply held_within; eauto.
    - pose proof (nth_error_In _ _ Hi) as Hc. destruct (Hn c s Hc) as [Hf [HF [Hb _]]].
      unfold gact_ok in Hok. rewrite (op_from_gact_op w c s g i o Hi Ho), Hi in Hok.
      destruct (step_bounded c Hf B B0 s o HF Hok Hb (op_from_claim_ok B w c s g i o HW Hc Ho)) as [Sb Sl].
      pose proof (step_FInv c Hf s o HF Hok) as SF.
      rewrite (at_node_put w i o c s Hi). cbn [fst]. set (s' := fst (step c s o)) in *.
      split; [apply (put_names w i c s s' Hi)|]. split; [|exact Hp].
      apply (put_nodes w i c s s' Hi); [exact Old|]. split; [exists s|]; auto.
    - split; [reflexivity|]. split; [exact Old | exact Hp]. }
  destruct Step as [En [Nn Np]]. split; [exact En|]. split; [intros c s' Hin; apply (Nn c s' Hin)|].
  intros M Hown. split; [|intros p Hin; apply M, Np, Hin].
  intros c s Hin. destruct (Nn c s Hin) as [_ [F [I Hb]]].
  split; [exact F | split; [exact I | split; [eapply bounded_mono; eauto | apply Hown, Hin]]].
Qed.

Lemma owner_le_own w c s i : NoDup (names w) -> In (c, s) (wnodes w) -> (i <= linc s)%N -> owner_le w (self c) i.
Proof.
  intros Hu Hin H c0 s0 H0 E0. assert (X : (c0, s0) = (c, s)) by (apply (unique_node w); auto). inversion X; subst. exact H.
Qed.

Lemma BW_within w : BW w <-> within (owner_le w) w /\ NoDup (names w).
Proof.
  split.
  - intros [Hn Hp Hu]. split; [split|]; auto. intros c s Hin. destruct (Hn c s Hin) as [F [I Hb]].
    split; [exact F | split; [exact I | split; [exact Hb | intros i; apply owner_le_own; assumption]]].
  - intros [[Hn Hp] Hu]. constructor; auto. intros c s Hin. destruct (Hn c s Hin) as [F [I [Hb _]]]. auto.
Qed.

Theorem gstep_BW w g :
  BW w -> gact_ok w g ->
  BW (fst (gstep w g)) /\ (forall n inc, owner_le w n inc -> owner_le (fst (gstep w g)) n inc).
Proof.
  intros HW Hok. apply BW_within in HW. destruct HW as [HW Hu].
  destruct (gstep_within (owner_le w) (owner_le (fst (gstep w g))) w g (fun n c s _ _ => N.le_0_l _) HW Hok) as [En [Hl Hw']].
  assert (M : forall n inc, owner_le w n inc -> owner_le (fst (gstep w g)) n inc).
  { intros n inc H c s' Hin E. destruct (Hl c s' Hin) as [s [Hin0 Le]]. pose proof (H c s Hin0 E). lia. }
  split; [|exact M]. apply BW_within. rewrite En. split; [|exact Hu].
  apply Hw'; [exact M|]. intros c s Hin i. apply owner_le_own; [rewrite En; exact Hu | exact Hin].
Qed.

Fixpoint grun_ok (w : world) (l : list gact) : Prop :=
  match l with
  | [] => True
  | g :: l' => gact_ok w g /\ grun_ok (fst (gstep w g)) l'
  end.

Theorem grun_BW : forall l w, BW w -> grun_ok w l -> BW (fst (grun w l)).
Proof.
  induction l as [|g l IH]; intros w HW Hok; [exact HW|]. destruct Hok as [Hg Hl].
  rewrite grun_cons. apply IH; [apply gstep_BW; assumption | exact Hl].
Qed.

Lemma boot_bounded (B : N -> N -> Prop) c meta : good_cfg c -> bounded c B (boot c meta).
Proof.
  intros [F [V A]]. rewrite (boot_eq c meta A V). constructor; cbn [recs bq linc].
  - intros n r [E'|[]]. inversion E'; subst. unfold ok_claim. rewrite N.eqb_refl. left. cbn. lia.
  - intros k m [E'|[]]. inversion E'; subst. unfold ok_claim. cbn [mname minc]. rewrite N.eqb_refl. left. lia.
Qed.

Lemma boot_world_BW cs :
  Forall (fun cm => good_cfg (fst cm)) cs -> NoDup (map (fun cm => self (fst cm)) cs) -> BW (boot_world cs).
Proof.
  intros Hg Hu. constructor; [|intros p []|rewrite boot_world_names; exact Hu].
  intros c s Hin. destruct (boot_world_node _ cs c s Hg Hin) as [G [m ->]]. pose proof G as [F [V A]].
  split; [exact F | split; [apply boot_FInv; assumption | apply boot_bounded, G]].
Qed.

(* C05: in every reachable state of the cluster, every claim about a member — held by any node, queued
   for gossip anywhere, or ever put on the network — carries at most that member's own counter *)
Theorem claims_below_owner cs acts :
  Forall (fun cm => good_cfg (fst cm)) cs -> NoDup (map (fun cm => self (fst cm)) cs) ->
  grun_ok (boot_world cs) acts ->
  let w := fst (grun (boot_world cs) acts) in
  forall cx sx, In (cx, sx) (wnodes w) ->
    (forall c s n r, In (c, s) (wnodes w) -> lk s n = Some r -> n = self cx -> (rinc r <= linc sx)%N) /\
    (forall c s k m, In (c, s) (wnodes w) -> In (k, m) (bq s) -> mname m = self cx -> (minc m <= linc sx)%N) /\
    (forall p, In p (wpool w) -> pname p = self cx -> (pinc p <= linc sx)%N).
Proof.
  intros Hg Hu Hok w cx sx Hx.
  pose proof (grun_BW acts _ (boot_world_BW cs Hg Hu) Hok) as HW.
  destruct (within_claims _ w (proj1 (proj1 (BW_within w) HW))) as [Hr [Hq Hp]].
  split; [|split].
  - intros c s n r Hin L En. exact (Hr c s n r Hin L cx sx Hx (eq_sym En)).
  - intros c s k m Hin Hm En. exact (Hq c s k m Hin Hm cx sx Hx (eq_sym En)).
  - intros p Hin En. exact (Hp p Hin cx sx Hx (eq_sym En)).
Qed.

(* a member that is running and hears an accusation at (or above) its record's incarnation moves its
   counter strictly above every claim in the system and queues its alive message *)
Theorem refutation_outranks_all w i c s r inc from :
  BW w -> nth_error (wnodes w) i = Some (c, s) -> leaving s = false ->
  lk s (self c) = Some r -> rst r = Alive -> (rinc r <= inc)%N -> below_max inc -> below_max (linc s) ->
  let s' := fst (do_suspect c s inc (self c) from) in
  s' = refute c s r inc /\
  alookup (kaddr (raddr r)) (bq s') = Some (BAlive (linc s') (self c) (raddr r) (rmeta r) (rvsn r)) /\
  (* above every record of it held anywhere ... *)
  (forall cj sj rj, In (cj, sj) (wnodes w) -> lk sj (self c) = Some rj -> (rinc rj < linc s')%N) /\
  (* ... every queued broadcast about it ... *)
  (forall cj sj k m, In (cj, sj) (wnodes w) -> In (k, m) (bq sj) -> mname m = self c -> (minc m < linc s')%N) /\
  (* ... and everything ever put on the network about it *)
  (forall p, In p (wpool w) -> pname p = self c -> (pinc p < linc s')%N).
Proof.
  intros HW Hi Lv L A Ge Bi Bl. cbv zeta.
  assert (Hin : In (c, s) (wnodes w)) by (eapply nth_error_In; exact Hi).
  destruct (bw_nodes w HW c s Hin) as [Hf [[HI K] Hb]].
  destruct (within_claims _ w (proj1 (proj1 (BW_within w) HW))) as [Hr [Hq Hp]].
  rewrite (suspect_self_refuted c s inc from r HI Lv L A Ge).
  pose proof (refute_effect c s r inc Bi Bl) as [R1 [R2 [R3 [R4 _]]]].
  split; [reflexivity|]. split; [exact R4|].
  (* the refutation is above the member's counter, which is above every claim about it *)
  assert (Own : forall k, owner_le w (self c) k -> (k < linc (refute c s r inc))%N).
  { intros k Hk. pose proof (Hk c s Hin eq_refl). lia. }
  split; [|split].
  - intros cj sj rj Hj Lj. apply Own, (Hr cj sj _ rj Hj Lj).
  - intros cj sj k m Hj Hm En. apply Own. rewrite <- En. apply (Hq cj sj k m Hj Hm).
  - intros p Hin' En. apply Own. rewrite <- En. apply Hp, Hin'.
Qed.

(* whoever then processes that alive message, holding any older record of the member at the same
   address, lists it alive with the metadata the message carries *)
Theorem newer_alive_accepted c s inc name addr meta vsn r :
  lk s name = Some r -> name <> self c -> raddr r = addr -> (rinc r < inc)%N -> vsn_bad vsn = false ->
  let s' := fst (do_alive c s inc name addr meta vsn false) in
  exists r', lk s' name = Some r' /\ rst r' = Alive /\ rinc r' = inc /\ raddr r' = addr /\ rmeta r' = meta.
Proof.
  intros L Hn Ea Lt Vb. cbv zeta. rewrite (alive_other c s inc name addr meta vsn false r L Hn Ea Vb).
  destruct (N.leb_spec inc (rinc r)); [lia|]. cbn [fst]. rewrite lk_commit, N.eqb_refl.
  eexists. split; [reflexivity|]. cbn. auto.
Qed.

(* a decidable version of the no-wrap side condition, for examples *)
Definition below_maxb (x : N) : bool := (x <? two32 - 1)%N.
Definition all_belowb (s : nstate) : bool :=
  below_maxb (linc s) && forallb (fun p => below_maxb (rinc (snd p))) (recs s).
Definition op_okb (c : cfg) (s : nstate) (o : op) : bool :=
  all_belowb s &&
  match o with
  | OAlive inc name _ _ _ b => below_maxb inc && (negb b || (N.eqb name (self c) && (inc <=? linc s)%N))
  | OHandleAlive _ inc _ _ _ _ | OSuspect inc _ _ | ODead inc _ _ | OMerge _ inc _ _ _ _ | OLeaveCommit inc => below_maxb inc
  | OUpdate _ _ => below_maxb (linc s + 1)
  | _ => true
  end.
Definition gact_okb (w : world) (g : gact) : bool :=
  match gact_op w g with
  | Some (i, o) => match nth_error (wnodes w) i with Some (c, s) => op_okb c s o | None => true end
  | None => true
  end.
Fixpoint grun_okb (w : world) (l : list gact) : bool :=
  match l with
  | [] => true
  | g :: l' => gact_okb w g && grun_okb (fst (gstep w g)) l'
  end.

Lemma below_maxb_ok x : below_maxb x = true -> below_max x.
Proof. unfold below_maxb, below_max. apply N.ltb_lt. Qed.

Lemma all_belowb_ok s : all_belowb s = true -> all_below s.
Proof.
  unfold all_belowb. intro H. apply andb_true_iff in H. destruct H as [H1 H2]. split; [apply below_maxb_ok; exact H1|].
  intros n r L. rewrite forallb_forall in H2. apply below_maxb_ok. apply (H2 (n, r)). apply alookup_some_in. exact L.
Qed.

Lemma op_okb_ok c s o : op_okb c s o = true -> op_ok c s o.
Proof.
  unfold op_okb, op_ok. intro H. apply andb_true_iff in H. destruct H as [H1 H2]. split; [apply all_belowb_ok; exact H1|].
  destruct o; auto; try (apply below_maxb_ok; exact H2).
  apply andb_true_iff in H2. destruct H2 as [H2 H3]. split; [apply below_maxb_ok; exact H2|].
  intro Eb. subst. cbn in H3. apply andb_true_iff in H3. destruct H3 as [H3 H4].
  split; [apply N.eqb_eq; exact H3 | apply N.leb_le; exact H4].
Qed.

Lemma grun_okb_ok : forall l w, grun_okb w l = true -> grun_ok w l.
Proof.
  induction l as [|g l IH]; intros w H; cbn in *; [exact I|].
  apply andb_true_iff in H. destruct H as [H1 H2]. split; [|apply IH; exact H2].
  unfold gact_okb in H1. unfold gact_ok. destruct (gact_op w g) as [[i o]|]; [|exact I].
  destruct (nth_error (wnodes w) i) as [[c s]|]; [|exact I]. apply op_okb_ok. exact H1.
Qed.
