(* Leave_proofs.v — C08 over whole histories: once a node has left (flag set, own record Left), no
   operation whatsoever — claims about itself or others by any path, timers, reaping, further API calls —
   changes its own record or clears the flag; it never lists itself again. *)
From VF Require Import Base Core Core_lemmas Core_inv Exchange Below_cluster.
Local Open Scope Z_scope.

Section Leave.
Variable c : cfg.
Hypothesis Hfixed : fixed c = true.

Definition Gone (s : nstate) (r : rec) : Prop :=
  leaving s = true /\ lk s (self c) = Some r /\ rst r = Left /\ no_live (self c) (timers s).

(* no claim is accepted about a node that has left: one about itself is ignored (its record is Left, it is
   leaving), one about somebody else touches neither its record nor its timers *)
Lemma outcome_gone s k s' evs r : outcome c s k s' evs -> Gone s r -> Gone s' r.
Proof.
  intros H G. pose proof G as [Lv [L [A NL]]]. destruct (N.eq_dec (call_name k) (self c)) as [E|Ns].
  - destruct H as [[->| ->] _ | inc name addr meta vsn b -> Ln _ _ | me _ FL _ _ _ _ _ | r0 r' m ts L0 Hr _
                  | inc name from r0 sA -> _ _ LT _ _ _ | inc name from r0 sA -> _ _ LT _ _ _]; cbn [call_name] in E.
    + exact G.
    + rewrite E, touch_no_live by exact NL. exact G.
    + congruence.
    + rewrite Hfixed, Lv in FL. discriminate.
    + rewrite E, L in L0. inversion L0; subst r0. pose proof (recorded_self Hr E) as X.
      destruct k; [destruct X; congruence | contradiction | destruct X as [_ X]; rewrite A in X; discriminate].
    + subst. contradiction.
    + subst. contradiction.
  - destruct (outcome_keeps c (self c) s k s' evs H Ns) as [K1 [K2 [_ K4]]]. unfold Gone. rewrite K1, K2.
    spl; auto. exact (no_live_sub _ _ _ NL K4).
Qed.

Lemma do_call_gone s r k : Gone s r -> Gone (fst (do_call c s k)) r.
Proof. exact (outcome_gone s k _ _ r (call_outcome c s k)). Qed.

Lemma gone_wait w s evs r : Gone s r -> Gone (fst (wait_bcast c w (s, evs))) r.
Proof.
  apply (wait_bcast_ind c (fun s0 _ => Gone s0 r)).
  - intros s0 _ t G. exact G.
  - intros s0 _ t [Lv [L [A NL]]]. unfold Gone. spl; auto. apply (no_live_sub _ _ _ NL). intros u Hu _. apply filter_In in Hu. tauto.
  - intros s0 _ n q _ _. apply (do_call_gone s0 r (CDead _ _ _)).
Qed.

(* one operation: nothing changes the record of a node that has left, nor clears the flag *)
Theorem gone_step s r o : Gone s r -> Gone (fst (step c s o)) r.
Proof.
  intro G. apply (step_ind0 c (fun s1 _ => Gone s1 r)); auto using do_call_gone.
  - intros _. destruct G as [Lv [L [A NL]]]. unfold Gone. spl; auto. apply reap_keeps_self; assumption.
  - intros s1 _ s2 Hi [Lv [L [A NL]]]. unfold Gone. destruct Hi; spl; auto.
    apply (no_live_sub _ _ _ NL). intros u Hu _. apply filter_In in Hu. tauto.
Qed.

Theorem gone_run ops : forall s r, Gone s r ->
  Gone (fst (run c s ops)) r /\ listed (fst (run c s ops)) (self c) = None.
Proof.
  induction ops as [|o ops IH]; intros s r G.
  - cbn [run fst]. split; [exact G|]. destruct G as [_ [L [A _]]]. unfold listed. unfold lk in L. rewrite L, A. reflexivity.
  - rewrite run_cons. apply IH, gone_step, G.
Qed.

(* Leave on a running node that lists itself produces exactly such a state (whatever else it holds) *)
Theorem leave_is_gone s r w : leaving s = false -> lk s (self c) = Some r -> rst r = Alive ->
  exists r', Gone (fst (step c s (OLeave w))) r' /\ rinc r' = rinc r.
Proof.
  intros Lv L A. cbn [step]. rewrite Lv.
  assert (L1 : alookup (self c) (recs (set_leaving s)) = Some r) by exact L. rewrite L1.
  set (r' := mkRec (rinc r) Left (raddr r) (rmeta r) (rvsn r) (now s)).
  assert (G0 : Gone (fst (do_dead c (set_leaving s) (rinc r) (self c) (self c))) r').
  { rewrite (dead_recorded c (set_leaving s) (rinc r) (self c) (self c) r L (N.le_refl _)) by (rewrite ?A; reflexivity).
    rewrite N.eqb_refl, Hfixed. cbn [andb fst]. rewrite N.eqb_refl. unfold Gone.
    spl; [reflexivity | rewrite lk_commit, N.eqb_refl; reflexivity | reflexivity | apply orphan_no_live_after]. }
  exists r'. split; [|reflexivity].
  destruct (do_dead c (set_leaving s) (rinc r) (self c) (self c)) as [sd ed].
  apply gone_wait. exact G0.
Qed.

(* The leaver's own queued alive messages: every alive message about the node itself that sits in its broadcast queue carries at most the
   incarnation of its own record — in particular, once that record is the departure (Left at i), no queued
   alive message of its own is newer than the departure, so by C08_no_resurrection_alive none of them,
   delivered in whatever order, brings it back on a peer that recorded the departure *)
Definition QInv (s : nstate) : Prop :=
  forall k i a m v, In (k, BAlive i (self c) a m v) (bq s) -> exists r, lk s (self c) = Some r /\ (i <= rinc r)%N.

Lemma Q_same s s' : bq s' = bq s -> lk s' (self c) = lk s (self c) -> QInv s -> QInv s'.
Proof. intros E1 E2 Q k i a m v Hin. rewrite E1 in Hin. rewrite E2. eapply Q; exact Hin. Qed.

Lemma Q_refute s me acc : QInv s -> lk s (self c) = Some me -> (rinc me <= linc s)%N ->
  below_max acc -> below_max (linc s) -> QInv (refute c s me acc).
Proof.
  intros Q L Le Ba Bl. pose proof (refute_outranks s acc Ba Bl) as [_ Hgt].
  intros k i a m v Hin. rewrite lk_refute, N.eqb_refl. eexists. split; [reflexivity|]. cbn [bumped rinc].
  unfold refute in Hin. cbv zeta in Hin. fold (refute_inc s acc) in Hin. apply In_aset in Hin. destruct Hin as [E|Hin].
  - inversion E; subst. lia.
  - destruct (Q k i a m v Hin) as [r0 [L0 Le0]]. assert (r0 = me) by congruence. subst. lia.
Qed.

(* a record and a message written together: if the message is an alive about the node itself, the record is
   the node's own and not older; the node's own record never goes down *)
Lemma Q_write s k n r' m : QInv s ->
  (n = self c -> forall r0, lk s (self c) = Some r0 -> (rinc r0 <= rinc r')%N) ->
  (forall i a mm v, m = BAlive i (self c) a mm v -> n = self c /\ (i <= rinc r')%N) ->
  QInv (set_rec (set_bq s k m) n r').
Proof.
  intros Q Hr Hm k' i a mm v Hin. cbn [set_rec set_bq bq] in Hin. unfold lk. cbn [set_rec recs]. rewrite alookup_aset.
  apply In_aset in Hin. destruct Hin as [E|Hin].
  - inversion E; subst. destruct (Hm _ _ _ _ eq_refl) as [-> Hi]. rewrite N.eqb_refl. eauto.
  - destruct (Q k' i a mm v Hin) as [r0 [L0 Le]]. destruct (N.eqb_spec (self c) n) as [<-|_]; [|eauto].
    exists r'. split; [reflexivity|]. specialize (Hr eq_refl r0 L0). lia.
Qed.

Lemma Q_alive_commit s k i a m v r' : QInv s ->
  (forall r0, lk s (self c) = Some r0 -> (rinc r0 <= rinc r')%N) -> (i <= rinc r')%N ->
  QInv (set_rec (set_bq s k (BAlive i (self c) a m v)) (self c) r').
Proof. intros Q Hr Hi. apply Q_write; [exact Q | intros _; exact Hr | intros ? ? ? ? E; inversion E; subst; auto]. Qed.

Lemma Q_commit s n r' m ts : QInv s ->
  (n = self c -> forall r0, lk s (self c) = Some r0 -> (rinc r0 <= rinc r')%N) ->
  (forall i a mm v, m = BAlive i (self c) a mm v -> n = self c /\ (i <= rinc r')%N) ->
  QInv (commit s n r' m ts).
Proof. intros Q Hr Hm. apply (Q_same (set_rec (set_bq s (kname n) m) n r')); [reflexivity | reflexivity | apply Q_write; assumption]. Qed.

Lemma confirmed_Q {s inc name from sA} : confirmed s inc name from sA -> QInv s -> QInv sA.
Proof.
  intros [ts [-> _]] Q k i a m v Hin. apply In_aset in Hin.
  destruct Hin as [E|Hin]; [discriminate | exact (Q k i a m v Hin)].
Qed.

Lemma outcome_Q s k s' evs : outcome c s k s' evs -> SelfInv c s -> call_ok c s k -> QInv s -> QInv s'.
Proof.
  induction 1 as [s k s' evs [->| ->] _ | s k s' evs inc name addr meta vsn b -> Ln Al _ IH | s k s' evs me _ FL _ L _ -> _
                 | s k s' evs r r' m ts L Hr -> | s k s' evs inc name from r sA -> L _ LT HC -> _
                 | s k s' evs inc name from r sA -> L _ LT HC _ _ IH]; intros HS Hk Q; pose proof Hk as [[B1 B2] [Bi _]].
  - exact Q.
  - exact Q.
  - apply IH; [apply place_SelfInv | apply place_call_ok|]; auto.
    intros k0 i a m v Hin. destruct (Q k0 i a m v Hin) as [r0 [L0 Le]]. exists r0. split; [|exact Le].
    rewrite lk_place by exact Ln. destruct (N.eqb_spec (self c) name); [congruence | exact L0].
  - rewrite Hfixed in FL. destruct (HS FL) as [r [L' [_ I]]]. assert (r = me) by congruence. subst r.
    apply (Q_refute (touch s (self c))); auto.
  - apply Q_commit; [exact Q | |].
    + intros E r0 L0. rewrite E, L0 in L. inversion L; subst r0.
      destruct Hr as [? ? ? ? ? Ge _ _ _ | ? ? ? ? ? _ _ Ns _ _ | ? ? ? ? ? ? ? LS D _ _]; cbn [call_name rinc] in *;
        [exact Ge | contradiction |].
      destruct D as [Lt|[[_ Ge]|[_ [_ Cr]]]]; [lia | exact Ge |].
      (* the node is running, so it holds itself Alive: nobody reclaims its name *)
      subst. rewrite N.eqb_refl, andb_true_r in LS. destruct (HS LS) as [r1 [L1 [A1 _]]].
      assert (r1 = r) by congruence. subst. unfold can_replace in Cr. rewrite A1 in Cr. discriminate.
    + intros i a mm v E. destruct Hr; try discriminate. inversion E; subst. cbn. split; [reflexivity | lia].
  - exact (confirmed_Q HC Q).
  - apply IH; [eapply confirmed_SelfInv | eapply confirmed_call_ok | exact (confirmed_Q HC Q)]; eauto. split; assumption.
Qed.

Lemma do_call_Q s k : SelfInv c s -> call_ok c s k -> QInv s -> QInv (fst (do_call c s k)).
Proof. exact (outcome_Q s k _ _ (call_outcome c s k)). Qed.

Theorem Q_step s o : FInv c s -> op_ok c s o -> QInv s -> QInv (fst (step c s o)).
Proof.
  intros HF Hok Q. apply (step_ind c Hfixed (fun s1 _ => QInv s1)); auto.
  - intros k _ Hk. apply do_call_Q; [apply HF | exact Hk | exact Q].
  - intros _ k i a m v Hin. destruct (Q k i a m v Hin) as [r0 [L0 Le]]. exists r0. split; [|exact Le].
    apply reap_keeps_self; assumption.
  - intros s1 _ k G _ Hk. apply do_call_Q; [apply G | exact Hk].
  - intros s1 _ s2 _ Hi. apply Q_same; destruct Hi; reflexivity.
Qed.

Theorem Q_run ops : forall s, FInv c s -> run_ok c s ops -> QInv s -> QInv (fst (run c s ops)).
Proof.
  induction ops as [|o ops IH]; intros s HI HR Q; [exact Q|].
  destruct HR as [Ho HR]. rewrite run_cons. apply IH; [apply step_FInv | exact HR | apply Q_step]; assumption.
Qed.

Lemma Q_boot meta : is_allowed c (self_addr c) = true -> vsn_bad (self_vsn c) = false -> QInv (boot c meta).
Proof.
  intros Al Vb k i a m v Hin. rewrite boot_eq in Hin by assumption. rewrite boot_eq by assumption. cbn in Hin.
  destruct Hin as [E|[]]. inversion E; subst. eexists. split; [unfold lk; cbn; rewrite N.eqb_refl; reflexivity|]. cbn. lia.
Qed.

End Leave.

(* a decidable version of [run_ok] for examples *)
Fixpoint run_okb (c : cfg) (s : nstate) (ops : list op) : bool :=
  match ops with
  | [] => true
  | o :: ops' => Below_cluster.op_okb c s o && run_okb c (fst (step c s o)) ops'
  end.
Lemma run_okb_ok c : forall ops s, run_okb c s ops = true -> run_ok c s ops.
Proof.
  induction ops as [|o ops IH]; intros s H; cbn [run_okb run_ok] in *; [exact I|].
  apply andb_true_iff in H. destruct H as [H1 H2]. split; [apply Below_cluster.op_okb_ok; exact H1 | apply IH; exact H2].
Qed.
