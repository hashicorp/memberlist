(* Base.v — shared small definitions for all models (stdlib only, all computable). *)
From Coq Require Export List NArith ZArith Bool Lia.
Export ListNotations.

(* Outcome of a modelled call: a Go panic is an ordinary value. *)
Inductive outcome (A : Type) := Ok (a : A) | Err (e : N) | Panic.
Arguments Ok {A} _. Arguments Err {A} _. Arguments Panic {A}.

Definition is_panic {A} (o : outcome A) : bool :=
  match o with Panic => true | _ => false end.

(* association lists keyed by N *)
Fixpoint alookup {A} (k : N) (l : list (N * A)) : option A :=
  match l with
  | [] => None
  | (k', v) :: l' => if N.eqb k k' then Some v else alookup k l'
  end.

Fixpoint aremove {A} (k : N) (l : list (N * A)) : list (N * A) :=
  match l with
  | [] => []
  | (k', v) :: l' => if N.eqb k k' then aremove k l' else (k', v) :: aremove k l'
  end.

(* replace in place when present (keeps position), append otherwise *)
Fixpoint aset {A} (k : N) (v : A) (l : list (N * A)) : list (N * A) :=
  match l with
  | [] => [(k, v)]
  | (k', v') :: l' => if N.eqb k k' then (k, v) :: l' else (k', v') :: aset k v l'
  end.

Definition akeys {A} (l : list (N * A)) : list N := map fst l.

Fixpoint list_eqb {A} (eqb : A -> A -> bool) (a b : list A) : bool :=
  match a, b with
  | [], [] => true
  | x :: a', y :: b' => eqb x y && list_eqb eqb a' b'
  | _, _ => false
  end.

Lemma list_eqb_eq {A} (eqb : A -> A -> bool)
      (H : forall x y, eqb x y = true <-> x = y) :
  forall a b, list_eqb eqb a b = true <-> a = b.
Proof.
  induction a as [|x a IH]; destruct b as [|y b]; cbn; try (split; congruence).
  rewrite andb_true_iff, H, IH. split; [intros [-> ->]; reflexivity | intros [= -> ->]; auto].
Qed.

Definition Nmem (x : N) (l : list N) : bool := existsb (N.eqb x) l.

Lemma Nmem_In x l : Nmem x l = true <-> In x l.
Proof.
  unfold Nmem. rewrite existsb_exists. split.
  - intros [y [Hy E]]. apply N.eqb_eq in E. subst. exact Hy.
  - intro H. exists x. split; [exact H | apply N.eqb_refl].
Qed.

Lemma NoDup_app_one {A} (l : list A) x : NoDup l -> ~ In x l -> NoDup (l ++ [x]).
Proof. intros ND Hn. apply (NoDup_Add (Add_app x l [])). rewrite app_nil_r. auto. Qed.

Fixpoint count_N (x : N) (l : list N) : nat :=
  match l with [] => 0 | y :: l' => (if N.eqb x y then 1 else 0) + count_N x l' end.
